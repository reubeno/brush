(** C01 — theorems about the variables.rs cores, tilde digits, history display, pow and deref. *)
From BV Require Import Base.Prelude Base.Decimal NoPanic.Mach NoPanic.Brace NoPanic.Substring NoPanic.Vars NoPanic.Tilde
  NoPanic.History NoPanic.Pow.

Theorem no_panic_int_append : forall b s, int_append b s <> Panic.
Proof. intros; discriminate. Qed.

Theorem int_append_refuted : exists b s, int_append_orig b s = Panic.
Proof.
  (* "9223372036854775807" += "1": i64::MAX + 1 *)
  exists (map N.of_nat [57;50;50;51;51;55;50;48;51;54;56;53;52;55;55;53;56;48;55]%nat), [49%N].
  vm_compute. reflexivity.
Qed.

Lemma int_norm_parse s : parse_i64_or0 (int_norm s) = parse_i64_or0 s.
Proof.
  unfold int_norm. unfold parse_i64_or0 at 1. rewrite parse_show_Z by apply parse_i64_or0_range. reflexivity.
Qed.

(** known class: the sum leaves i64 *)
Theorem int_append_orig_outside_known : forall b s,
  known_int_append b s = false -> int_append_orig b s = int_append b s.
Proof.
  intros b s Hk. unfold known_int_append in Hk. apply negb_false_iff in Hk.
  unfold int_append_orig, int_append. rewrite int_norm_parse. unfold i64_add. rewrite Hk.
  cbn [of_opt bind]. rewrite wrap64_id by exact Hk. reflexivity.
Qed.

Theorem no_panic_array_keys : forall last lits, array_keys last lits <> Panic.
Proof. intros; discriminate. Qed.

Theorem array_keys_refuted : exists last lits, array_keys_orig last lits = Panic.
Proof.
  (* ([18446744073709551615]=a b): the key after u64::MAX *)
  exists None, [Some (map N.of_nat [49;56;52;52;54;55;52;52;48;55;51;55;48;57;53;53;49;54;49;53]%nat); None].
  vm_compute. reflexivity.
Qed.

Lemma keys_loop_orig_eq lits : forall nk, 0 <= nk <= u64_max ->
  existsb (fun k => k =? u64_max) (keys_loop lits nk) = false ->
  keys_loop_orig lits nk = Val (keys_loop lits nk).
Proof.
  induction lits as [|k r IH]; intros nk Hn Hx; cbn [keys_loop_orig keys_loop]; [reflexivity|].
  cbn [keys_loop existsb] in Hx. apply orb_false_iff in Hx. destruct Hx as [Hk Hr].
  set (key := match k with Some s => parse_u64_or0 s | None => nk end) in *.
  assert (Hkey : 0 <= key <= u64_max).
  { unfold key. destruct k; [apply parse_u64_or0_range|exact Hn]. }
  apply Z.eqb_neq in Hk.
  rewrite u64_add_ok by lia. cbn [of_opt bind].
  rewrite to_u64_small in Hr |- * by lia. rewrite IH by (lia || exact Hr). reflexivity.
Qed.

Theorem array_keys_orig_outside_known : forall last lits,
  (forall m, last = Some m -> 0 <= m <= u64_max) ->
  known_array_keys last lits = false -> array_keys_orig last lits = array_keys last lits.
Proof.
  intros last lits Hl Hk. unfold known_array_keys in Hk. apply orb_false_iff in Hk. destruct Hk as [H1 H2].
  unfold array_keys_orig, array_keys. destruct last as [m|].
  - specialize (Hl m eq_refl). apply Z.eqb_neq in H1.
    rewrite u64_add_ok by lia. cbn [of_opt bind].
    rewrite to_u64_small in H2 |- * by lia. apply keys_loop_orig_eq; [lia|exact H2].
  - cbn [bind]. apply keys_loop_orig_eq; [unfold u64_max; lia|exact H2].
Qed.

(** ** get_key_for_indexed_array *)
Theorem no_panic_indexed_key : forall count idx, 0 <= count <= i64_max -> indexed_key count idx <> Panic.
Proof.
  intros count idx Hc. unfold indexed_key.
  pose proof (parse_i64_or0_range idx) as Hr. apply in_i64_pow in Hr. unfold i64_max in Hc.
  destruct (Z.ltb_spec (parse_i64_or0 idx) 0) as [E|E]; [|discriminate].
  rewrite wrap64_id by (apply in_i64_pow; lia).
  rewrite i64_add_ok by lia. cbn [of_opt bind].
  destruct (parse_i64_or0 idx + count <? 0); discriminate.
Qed.

Theorem no_panic_capitalize : forall lowered up, capitalize lowered up <> Panic.
Proof. intros [|c r] up; discriminate. Qed.

Theorem capitalize_refuted : exists lowered up, capitalize_orig lowered up = Panic.
Proof. exists [233%N; 97%N], [201%N]. reflexivity. Qed.

Theorem capitalize_orig_outside_known : forall lowered up,
  known_capitalize lowered = false -> capitalize_orig lowered up = capitalize lowered up.
Proof.
  intros [|c r] up Hk; [reflexivity|]. cbn in *. apply negb_false_iff in Hk. rewrite Hk. reflexivity.
Qed.

Theorem no_panic_tilde_digits : forall ds, tilde_digits ds <> Panic.
Proof. intros ds. unfold tilde_digits. destruct (parse_u64 ds); discriminate. Qed.

Theorem tilde_digits_refuted : exists ds, tilde_digits_orig ds = Panic.
Proof. exists (repeat 57%N 23). vm_compute. reflexivity. Qed.

Theorem tilde_digits_orig_outside_known : forall ds,
  known_tilde ds = false -> tilde_digits_orig ds = tilde_digits ds.
Proof. intros ds Hk. unfold known_tilde, tilde_digits_orig, tilde_digits in *. destruct (parse_u64 ds); [reflexivity|discriminate]. Qed.

Theorem no_panic_dirstack : forall count n, dirstack_top count n <> Panic.
Proof.
  intros count n. unfold dirstack_top. destruct (n =? 0); [discriminate|].
  destruct (Z.leb_spec n count) as [E|E]; [|discriminate].
  rewrite u64_sub_ok by lia. cbn [of_opt bind]. discriminate.
Qed.

Lemma shown_numbers_no_panic count skip : 0 <= skip -> count <= u64_max - 1 -> shown_numbers count skip <> Panic.
Proof.
  intros Hs Hc. unfold shown_numbers.
  assert (Hi : Forall (fun i => skip + Z.of_nat i + 1 <= u64_max) (seq 0 (Z.to_nat (count - skip)))).
  { apply Forall_forall. intros i Hi. apply in_seq in Hi. lia. }
  induction Hi as [|i l Hi _ IH]; cbn [fold_right]; [discriminate|].
  apply bind_not_panic; [exact IH|]. intros acc.
  rewrite u64_add_ok by lia. cbn [of_opt bind]. rewrite u64_add_ok by lia. discriminate.
Qed.

Theorem no_panic_display : forall count max,
  0 <= count <= u64_max - 1 -> (forall m, max = Some m -> 0 <= m) -> display count max <> Panic.
Proof.
  intros count max Hc Hm. unfold display, skip_count. cbn [bind].
  apply shown_numbers_no_panic; lia.
Qed.

Theorem display_refuted : exists count max, display_orig count max = Panic.
Proof. exists 3, (Some 99999). reflexivity. Qed.

Theorem display_orig_outside_known : forall count max,
  known_history count max = false -> display_orig count max = display count max.
Proof.
  intros count max Hk. unfold display_orig, display, skip_count_orig, skip_count, known_history in *.
  destruct max as [m|].
  - apply Z.ltb_ge in Hk. rewrite u64_sub_ok by lia. cbn [of_opt]. rewrite Z.max_r by lia. reflexivity.
  - rewrite u64_sub_ok by lia. cbn [of_opt]. rewrite Z.max_r by lia. reflexivity.
Qed.

(** ** wrapping_pow_u64: at most 64 iterations for every u64 exponent *)
Lemma pow_loop_terminates fuel : forall r b e, in_i64 r = true -> e < 2 ^ Z.of_nat fuel ->
  exists v, pow_loop fuel r b e = Val v /\ in_i64 v = true.
Proof.
  induction fuel as [|f IH]; intros r b e Hr He.
  - cbn [pow_loop]. change (2 ^ Z.of_nat 0) with 1 in He.
    assert (E : (e <=? 0) = true) by (apply Z.leb_le; lia). rewrite E. eauto.
  - cbn [pow_loop]. destruct (Z.leb_spec e 0) as [E|E]; [eauto|].
    apply IH.
    + destruct (e mod 2 =? 1); [apply wrap64_in|exact Hr].
    + rewrite Nat2Z.inj_succ, Z.pow_succ_r in He by lia.
      apply Z.div_lt_upper_bound; lia.
Qed.

Theorem pow_terminates : forall b e, e < 2 ^ 64 ->
  exists v, wrapping_pow 64 b e = Val v /\ in_i64 v = true.
Proof. intros b e He. unfold wrapping_pow. apply pow_loop_terminates; [reflexivity|exact He]. Qed.

(** ** deref depth counter: no panic, and at most 1024 non-literal steps *)
Lemma depth_fits d : d <= MAX_DEPTH -> (d + 1 <? two32) = true.
Proof. intros H. apply Z.ltb_lt. unfold MAX_DEPTH, two32 in *. lia. Qed.

Lemma deref_no_panic fuel : forall env i d, d <= MAX_DEPTH -> deref fuel env i d <> Panic.
Proof.
  induction fuel as [|f IH]; intros env i d Hd; cbn [deref]; [discriminate|].
  destruct (nth_error env i) as [[v|j]|]; try discriminate. rewrite depth_fits by exact Hd.
  destruct (Z.ltb_spec MAX_DEPTH (d + 1)); [discriminate|]. apply IH. lia.
Qed.

Theorem no_panic_deref : forall fuel env i, deref fuel env i 0 <> Panic.
Proof. intros. apply deref_no_panic. unfold MAX_DEPTH. lia. Qed.

Lemma deref_fuel fuel : forall env i d, d <= MAX_DEPTH ->
  (Z.to_nat (MAX_DEPTH - d) + 2 <= fuel)%nat -> deref fuel env i d <> OutOfFuel.
Proof.
  induction fuel as [|f IH]; intros env i d Hd Hf; [lia|]. cbn [deref].
  destruct (nth_error env i) as [[v|j]|]; try discriminate. rewrite depth_fits by exact Hd.
  destruct (Z.ltb_spec MAX_DEPTH (d + 1)); [discriminate|]. apply IH; lia.
Qed.

Theorem deref_terminates : forall env i, deref 1026 env i 0 <> OutOfFuel.
Proof. intros. apply deref_fuel; unfold MAX_DEPTH; lia. Qed.

Theorem deref_cycle_fails : deref 1026 [Ref 0] 0 0 = Fail.
Proof. vm_compute. reflexivity. Qed.

Lemma aeval_no_panic fuel : forall env e d, d <= MAX_DEPTH -> aeval fuel env e d <> Panic.
Proof.
  induction fuel as [|f IH]; intros env e d Hd; cbn [aeval]; [discriminate|].
  (* [K]: the model's local [continue_with] does not panic *)
  assert (K : forall c : option aexp,
    match c with
    | None => Val 0
    | Some (ALit v) => Val v
    | Some e' => if d + 1 <? two32 then (if MAX_DEPTH <? d + 1 then Fail else aeval f env e' (d + 1)) else Panic
    end <> Panic).
  { intros [[v|i|a ix]|]; try discriminate; rewrite depth_fits by exact Hd;
      (destruct (Z.ltb_spec MAX_DEPTH (d + 1)); [discriminate|]; apply IH; lia). }
  destruct e as [v|i|a ix]; [discriminate|apply K|].
  apply bind_not_panic; [apply IH; exact Hd|].
  intros k. destruct (k <? 0); [discriminate|apply K].
Qed.

Theorem no_panic_aeval : forall fuel env e, aeval fuel env e 0 <> Panic.
Proof. intros. apply aeval_no_panic. unfold MAX_DEPTH. lia. Qed.

(** the cycle that runs through a subscript ( next=(1 2 0); i='next[i]'; $(( next[i] )) ) trips
    the recursion limit instead of recursing forever *)
Definition cycle_env : aenv :=
  {| scalars := [AElem 0 (AVar 0)]; arrays := [[ALit 1; ALit 2; ALit 0]] |}.
Lemma aeval_subscript_cycle_fails : aeval 4000 cycle_env (AElem 0 (AVar 0)) 0 = Fail.
Proof. vm_compute. reflexivity. Qed.

Lemma aeval_subscript_chain :
  aeval 50 {| scalars := [AElem 0 (AVar 1); ALit 2]; arrays := [[ALit 7; ALit 8; AVar 1]] |} (AVar 0) 0 = Val 2.
Proof. vm_compute. reflexivity. Qed.

(** The functions produce values, and the known classes do not hold of ordinary inputs. *)
Lemma nopanic_nonvacuous :
  numseq 10 5 1 2 = Val [5; 3; 1] /\ seq_count 5 1 2 = 3 /\
  known_numseq 5 1 2 = false /\ known_charseq 122 97 5 = false /\
  substring {| fields := [[[97;98;99;100]%N]]; from_array := false |} false 1 (Some (-1)) = Val [[[98;99]%N]] /\
  substring {| fields := [[[97;98;99;100]%N]]; from_array := false |} false 2 (Some (-5)) = Fail /\
  deref 1026 [Ref 0] 0 0 = Fail.
Proof. vm_compute. repeat split; reflexivity. Qed.
