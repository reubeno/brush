(** C01 — theorems about the Substring arm and polymorphic_subslice. *)
From BV Require Import Base.Prelude NoPanic.Mach NoPanic.Substring.

Lemma zlen_nonneg {A} (l : list A) : 0 <= zlen l. Proof. unfold zlen. lia. Qed.

Lemma pieces_loop_no_panic ps : forall dist left, pieces_loop ps dist left <> Panic.
Proof.
  induction ps as [|p ps IH]; intros dist left; cbn [pieces_loop]; [discriminate|].
  destruct (left =? 0); [discriminate|].
  destruct (Z.leb_spec (zlen p) dist).
  - rewrite u64_sub_ok by assumption. cbn [of_opt bind]. apply IH.
  - rewrite u64_sub_ok by lia. cbn [of_opt bind]. rewrite u64_sub_ok by lia. cbn [of_opt bind].
    apply bind_not_panic; [apply IH|]. intros [out st]. discriminate.
Qed.

Lemma fields_loop_no_panic fs : forall dist left, fields_loop fs dist left <> Panic.
Proof.
  induction fs as [|f fs IH]; intros dist left; cbn [fields_loop]; [discriminate|].
  apply bind_not_panic; [apply pieces_loop_no_panic|]. intros [pieces [d l]].
  apply bind_not_panic; [apply IH|]. intros; discriminate.
Qed.

Theorem no_panic_subslice : forall x index end_,
  0 <= index <= end_ ->
  zlen (fields x) <= u64_max ->
  (from_array x = true -> index <= zlen (fields x)) ->
  subslice x index end_ <> Panic.
Proof.
  intros x index end_ Hi Hm Ha. unfold subslice.
  rewrite u64_sub_ok by lia. cbn [of_opt bind].
  destruct (from_array x); [|apply fields_loop_no_panic].
  specialize (Ha eq_refl). rewrite u64_sub_ok by exact Ha. cbn [of_opt bind].
  rewrite u64_add_ok by lia. cbn [of_opt bind].
  rewrite (proj2 (Z.leb_le index _)), (proj2 (Z.leb_le _ (zlen (fields x)))) by lia. discriminate.
Qed.

Theorem subslice_refuted : exists x index end_, subslice x index end_ = Panic.
Proof. exists {| fields := [[[97%N]]]; from_array := false |}, 2, 1. reflexivity. Qed.

Lemma fold_sum_nonneg {A} (f : A -> Z) (l : list A) : (forall a, 0 <= f a) ->
  forall acc, 0 <= acc -> 0 <= fold_left (fun a x => a + f x) l acc.
Proof. intros Hf. induction l as [|x l IH]; intros acc Ha; cbn; [lia|]. apply IH. specialize (Hf x). lia. Qed.

Lemma poly_len_nonneg x : 0 <= poly_len x.
Proof.
  unfold poly_len. destruct (from_array x); [apply zlen_nonneg|].
  apply fold_sum_nonneg; [|lia]. intros f. apply fold_sum_nonneg; [|lia]. intros; apply zlen_nonneg.
Qed.

Lemma poly_len_orig_nonneg x : 0 <= poly_len_orig x.
Proof.
  unfold poly_len_orig. destruct (from_array x); [apply zlen_nonneg|].
  apply fold_sum_nonneg; [|lia]. intros f. apply fold_sum_nonneg; [|lia]. intros p.
  unfold bytes_len. apply fold_sum_nonneg; [|lia]. intros c. pose proof (utf8_len_ge1 c). lia.
Qed.

(** Both arms compute a length [plen] (for an array the number of its elements), keep it through
    `as i64`, and end in a slice [a .. b] inside it. *)
Lemma arm_length x plen :
  0 <= plen <= 2 ^ 63 - 1 -> zlen (fields x) <= 2 ^ 63 - 1 -> (from_array x = true -> plen = zlen (fields x)) ->
  wrap64 plen = plen /\
  forall a b, 0 <= a <= b -> b <= plen -> safe (fun _ => True) (subslice x (to_u64 a) (to_u64 b)).
Proof.
  intros Hp Hz Harr. split; [apply wrap64_id, in_i64_pow; lia|].
  intros a b Hab Hb. rewrite !to_u64_small by (unfold u64_max; lia).
  apply np_safe, no_panic_subslice; [lia|unfold u64_max; lia|].
  intros Ef. rewrite <- (Harr Ef). lia.
Qed.

(** that the length of an expansion fits i64 is a memory bound *)
Theorem no_panic_substring : forall x positional off len,
  poly_len x <= i64_max -> zlen (fields x) <= i64_max ->
  in_i64 off = true -> (forall l, len = Some l -> in_i64 l = true) ->
  substring x positional off len <> Panic.
Proof.
  intros x positional off len Hp Hz Ho Hl. apply (safe_np (fun _ => True)). unfold substring.
  destruct (fields x) as [|f0 fr] eqn:Efs; [exact I|]. rewrite <- ?Efs in *. clear Efs f0 fr.
  pose proof (poly_len_nonneg x) as Hp0. unfold i64_max in *. apply in_i64_pow in Ho.
  destruct (arm_length x (poly_len x)) as [-> Hsub]; [lia|exact Hz|unfold poly_len; intros ->; reflexivity|].
  set (plen := poly_len x) in *.
  apply safe_bind with (P := fun o => - 2 ^ 63 <= o <= 2 ^ 63 - 1).
  { destruct (Z.ltb_spec off 0); [rewrite i64_add_ok by lia|]; cbn; lia. }
  intros off1 Hr. destruct (_ || _ || _) eqn:Eg; [apply Hsub; lia|].
  apply orb_false_iff in Eg as [Eg _]. apply orb_false_iff in Eg as [G1 G2]. apply Z.ltb_ge in G1, G2.
  (* the end lies between the offset and the length *)
  apply safe_bind with (P := fun e => off1 <= e <= plen); [|intros e He; apply Hsub; lia].
  destruct len as [l|]; [|cbn; lia]. specialize (Hl l eq_refl). apply in_i64_pow in Hl.
  destruct (Z.ltb_spec l 0).
  - rewrite i64_add_ok by lia. cbn [of_opt bind].
    destruct (from_array x); [exact I|]. destruct (Z.ltb_spec (plen + l) off1); cbn; [exact I|lia].
  - rewrite i64_sub_ok by lia. cbn [of_opt bind]. rewrite i64_add_ok by lia. cbn. lia.
Qed.

Theorem substring_refuted : exists x off len,
  in_i64 off = true /\ (forall l, len = Some l -> in_i64 l = true) /\ substring_orig x off len = Panic.
Proof.
  exists {| fields := [[[97;98;99;100]%N]]; from_array := false |}, 2, (Some (-5)).
  split; [reflexivity|]. split; [intros l H; inversion H; reflexivity|]. vm_compute. reflexivity.
Qed.

(** known class: a negative length *)
Theorem substring_orig_outside_known : forall x off len,
  poly_len_orig x <= i64_max -> zlen (fields x) <= i64_max ->
  in_i64 off = true -> (forall l, len = Some l -> in_i64 l = true) ->
  known_substring len = false ->
  substring_orig x off len <> Panic.
Proof.
  intros x off len Hp Hz Ho Hl Hk. apply (safe_np (fun _ => True)). unfold substring_orig.
  pose proof (poly_len_orig_nonneg x) as Hp0. unfold i64_max in *. apply in_i64_pow in Ho.
  destruct (arm_length x (poly_len_orig x)) as [-> Hsub]; [lia|exact Hz|unfold poly_len_orig; intros ->; reflexivity|].
  set (plen := poly_len_orig x) in *.
  apply safe_bind with (P := fun o => 0 <= o <= 2 ^ 63 - 1).
  { destruct (Z.ltb_spec off 0); [|cbn; lia]. rewrite i64_add_ok by lia. cbn [of_opt bind safe].
    destruct (Z.ltb_spec (off + plen) 0); lia. }
  intros off1 H1. cbv zeta.
  apply safe_bind with (P := fun e => Z.min off1 plen <= e <= plen); [|intros e He; apply Hsub; lia].
  destruct len as [l|]; [|cbn; lia]. specialize (Hl l eq_refl). apply in_i64_pow in Hl.
  cbn in Hk. rewrite Hk. apply Z.ltb_ge in Hk. cbn [bind].
  rewrite i64_sub_ok by lia. cbn [of_opt bind]. rewrite i64_add_ok by lia. cbn. lia.
Qed.
