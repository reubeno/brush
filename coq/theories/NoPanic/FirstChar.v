(** C01 core — `${v^pat}` / `${v,pat}` / `${v@u}`: [WordExpander::pattern_to_first_char]
    (brush-core/src/expansion.rs).  The first character is replaced by the FIRST character of
    its case mapping, the rest of the string is kept.  The Unicode case mapping of the first
    character is an input ([mapped] = [transform(first_char)] as a sequence, from Rust's tables);
    [applicable] = the pattern is absent/empty or matches the first character.
    The text is handled at byte level, as a Rust [String]: keeping "the rest" means slicing at a
    byte index, which panics unless the index is a character boundary of the ORIGINAL string. *)
From BV Require Import Base.Prelude NoPanic.Mach.

(** [&s[n..]] on a Rust string: the characters after byte offset [n]; panics when [n] is not a
    character boundary or lies beyond the end *)
Fixpoint byte_slice_from (s : str) (n : Z) : res str :=
  if n =? 0 then Val s
  else if n <? 0 then Panic
  else match s with
       | [] => Panic
       | c :: r => byte_slice_from r (n - utf8_len c)
       end.

(** the code: [result = upper_char.to_string(); result.extend(s.chars().skip(1))] — in byte terms
    the rest starts at [first_char.len_utf8()] *)
Definition first_char_case (s : str) (applicable : bool) (mapped : str) : res str :=
  match s with
  | [] => Val s
  | c :: _ =>
    if applicable then
      match mapped with
      | u :: _ => bind (byte_slice_from s (utf8_len c)) (fun rest => Val (u :: rest))
      | [] => Val s
      end
    else Val s
  end.

(** the tempting variant that slices at the length of the CONVERTED character *)
Definition first_char_case_wrong (s : str) (applicable : bool) (mapped : str) : res str :=
  match s with
  | [] => Val s
  | c :: _ =>
    if applicable then
      match mapped with
      | u :: _ => bind (byte_slice_from s (utf8_len u)) (fun rest => Val (u :: rest))
      | [] => Val s
      end
    else Val s
  end.

Lemma byte_slice_first c r : byte_slice_from (c :: r) (utf8_len c) = Val r.
Proof.
  pose proof (utf8_len_ge1 c) as H. cbn [byte_slice_from].
  destruct (Z.eqb_spec (utf8_len c) 0); [lia|]. destruct (Z.ltb_spec (utf8_len c) 0); [lia|].
  rewrite Z.sub_diag. destruct r; reflexivity.
Qed.

Theorem first_char_case_spec : forall s applicable mapped,
  first_char_case s applicable mapped =
  Val (match s, applicable, mapped with
       | c :: r, true, u :: _ => u :: r
       | _, _, _ => s
       end).
Proof.
  intros [|c r] applicable mapped; [reflexivity|]. unfold first_char_case.
  destruct applicable; [|reflexivity]. destruct mapped as [|u m]; [reflexivity|].
  rewrite byte_slice_first. reflexivity.
Qed.

Theorem no_panic_first_char_case : forall s applicable mapped, first_char_case s applicable mapped <> Panic.
Proof. intros. rewrite first_char_case_spec. discriminate. Qed.

(** dotless i (2 bytes) upper-cases to I (1 byte) *)
Theorem first_char_case_wrong_refuted : exists s mapped, first_char_case_wrong s true mapped = Panic.
Proof. exists [305%N; 115%N], [73%N]. vm_compute. reflexivity. Qed.

Theorem first_char_case_wrong_ok : forall c r u m,
  utf8_len u = utf8_len c -> first_char_case_wrong (c :: r) true (u :: m) = first_char_case (c :: r) true (u :: m).
Proof. intros c r u m H. unfold first_char_case_wrong, first_char_case. rewrite H. reflexivity. Qed.
