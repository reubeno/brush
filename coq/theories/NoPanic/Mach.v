(** C01 — machine integers with the debug-build semantics of Rust: every operation that
    panics on overflow (overflow-checks = on) returns [None]; `as` casts wrap.  The modelled
    cores return [res]: a value, a clean failure (error return / PEG rule does not match),
    [Panic], or [OutOfFuel]. *)
From BV Require Import Base.Prelude Base.Decimal.
From BV Require Arith.Wrap64.

Inductive res (A : Type) : Type :=
| Val (a : A)
| Fail
| Panic
| OutOfFuel.
Arguments Val {A} a.
Arguments Fail {A}.
Arguments Panic {A}.
Arguments OutOfFuel {A}.

Definition bind {A B} (r : res A) (f : A -> res B) : res B :=
  match r with Val a => f a | Fail => Fail | Panic => Panic | OutOfFuel => OutOfFuel end.

Definition of_opt {A} (o : option A) : res A := match o with Some a => Val a | None => Panic end.

Definition two63 : Z := 2 ^ 63.
Definition two64 : Z := 2 ^ 64.
Definition two32 : Z := 2 ^ 32.
Definition u64_max : Z := 2 ^ 64 - 1.
Definition in_u64 (z : Z) : bool := (0 <=? z) && (z <=? u64_max).

Definition i64_add (a b : Z) : option Z := let r := a + b in if in_i64 r then Some r else None.
Definition i64_sub (a b : Z) : option Z := let r := a - b in if in_i64 r then Some r else None.
Definition i64_mul (a b : Z) : option Z := let r := a * b in if in_i64 r then Some r else None.
(** usize = u64 on the target *)
Definition u64_add (a b : Z) : option Z := let r := a + b in if in_u64 r then Some r else None.
Definition u64_sub (a b : Z) : option Z := let r := a - b in if 0 <=? r then Some r else None.
Definition u32_sub (a b : Z) : option Z := let r := a - b in if 0 <=? r then Some r else None.

(** two's-complement wrap ([wrapping_add], `as i64`) *)
Definition wrap64 (z : Z) : Z := (z + two63) mod two64 - two63.
(** `x as usize` / `as u64` for an i64 [x]; `x as u32` for a usize *)
Definition to_u64 (z : Z) : Z := z mod two64.
Definition to_u32 (z : Z) : Z := z mod two32.

(** [str::parse::<u64>] / [::<usize>]: optional '+', at least one ASCII digit, no overflow *)
Definition parse_u64 (s : str) : option Z :=
  let ds := match s with 43%N :: r => r | _ => s end in
  match ds with
  | [] => None
  | _ => match digits_val 0 ds with
         | Some v => if v <=? u64_max then Some v else None
         | None => None
         end
  end.

Definition parse_i64_or0 (s : str) : Z := match parse_i64 s with Some v => v | None => 0 end.
Definition parse_u64_or0 (s : str) : Z := match parse_u64 s with Some v => v | None => 0 end.

(** UTF-8 length of a scalar value ([char::len_utf8]) *)
Definition utf8_len (c : char) : Z :=
  if (c <? 128)%N then 1 else if (c <? 2048)%N then 2 else if (c <? 65536)%N then 3 else 4.

(** [char::from_u32] *)
Definition char_of_u32 (z : Z) : option Z :=
  if (0 <=? z) && ((z <? 55296) || ((57343 <? z) && (z <=? 1114111))) then Some z else None.

Lemma utf8_len_ge1 c : 1 <= utf8_len c.
Proof. unfold utf8_len. destruct (c <? 128)%N; [lia|]. destruct (c <? 2048)%N; [lia|]. destruct (c <? 65536)%N; lia. Qed.

(** [wrap64] is [Arith.Wrap64.wrap64] with the powers not yet computed. *)
Lemma wrap64_in z : in_i64 (wrap64 z) = true.
Proof. apply Wrap64.inr_in_i64, Wrap64.wrap64_range. Qed.

Lemma wrap64_id z : in_i64 z = true -> wrap64 z = z.
Proof. intros H. apply Wrap64.wrap64_id, Wrap64.inr_in_i64, H. Qed.

(** The i64 bounds are spelled as powers of two so that [lia] sees them. *)
Lemma in_i64_pow z : in_i64 z = true <-> - 2 ^ 63 <= z <= 2 ^ 63 - 1.
Proof. unfold in_i64. rewrite andb_true_iff, !Z.leb_le. reflexivity. Qed.

Lemma i64_add_ok a b : - 2 ^ 63 <= a + b <= 2 ^ 63 - 1 -> i64_add a b = Some (a + b).
Proof. intros H. unfold i64_add. apply in_i64_pow in H. rewrite H. reflexivity. Qed.

Lemma i64_sub_ok a b : - 2 ^ 63 <= a - b <= 2 ^ 63 - 1 -> i64_sub a b = Some (a - b).
Proof. intros H. unfold i64_sub. apply in_i64_pow in H. rewrite H. reflexivity. Qed.

Lemma u64_add_ok a b : 0 <= a + b <= u64_max -> u64_add a b = Some (a + b).
Proof.
  intros H. unfold u64_add, in_u64.
  rewrite (proj2 (Z.leb_le 0 _)), (proj2 (Z.leb_le _ _)) by lia. reflexivity.
Qed.

Lemma u64_sub_ok a b : b <= a -> u64_sub a b = Some (a - b).
Proof. intros H. unfold u64_sub. rewrite (proj2 (Z.leb_le 0 _)) by lia. reflexivity. Qed.

Lemma to_u64_small z : 0 <= z <= u64_max -> to_u64 z = z.
Proof. intros H. apply Z.mod_small. unfold u64_max, two64 in *. lia. Qed.

Lemma digits_val_ge s : forall a v, 0 <= a -> digits_val a s = Some v -> 0 <= v.
Proof.
  induction s as [|c s IH]; intros a v Ha H; cbn in H.
  - inversion H; subst; lia.
  - destruct (is_digit c) eqn:Hd; [|discriminate].
    apply IH in H; [exact H|].
    unfold is_digit in Hd. apply andb_true_iff in Hd. destruct Hd as [H1 _]. apply N.leb_le in H1. lia.
Qed.

Lemma parse_go_spec neg ds v : parse_go neg ds = Some v -> in_i64 v = true /\ (neg = false -> 0 <= v).
Proof.
  unfold parse_go. destruct ds as [|d ds]; [discriminate|].
  destruct (digits_val 0 (d :: ds)) eqn:Ed; [|discriminate]. apply digits_val_ge in Ed; [|lia].
  destruct (in_i64 (if neg then - z else z)) eqn:E; [|discriminate]. intros [= <-].
  split; [exact E|]. intros ->. exact Ed.
Qed.

Lemma parse_i64_range s v : parse_i64 s = Some v -> in_i64 v = true.
Proof.
  destruct s as [|c s]; [discriminate|]. rewrite parse_i64_cons.
  destruct (c =? 43)%N; [|destruct (c =? 45)%N]; apply parse_go_spec.
Qed.

Lemma parse_i64_or0_range s : in_i64 (parse_i64_or0 s) = true.
Proof.
  unfold parse_i64_or0. destruct (parse_i64 s) eqn:E; [eapply parse_i64_range; eauto|reflexivity].
Qed.

Lemma parse_u64_or0_range s : 0 <= parse_u64_or0 s <= u64_max.
Proof.
  unfold parse_u64_or0, parse_u64.
  set (ds := match s with 43%N :: r => r | _ => s end).
  destruct ds as [|d ds']; [unfold u64_max; lia|].
  destruct (digits_val 0 (d :: ds')) eqn:E; [|unfold u64_max; lia].
  destruct (z <=? u64_max) eqn:E2; [|unfold u64_max; lia].
  apply Z.leb_le in E2. split; [|exact E2]. eapply digits_val_ge; [|exact E]. lia.
Qed.

(** [bind_not_panic] serves when every step is harmless whatever came before (the loops);
    [safe] with [safe_bind] when a later step is harmless only because of what an earlier value
    satisfies (checked arithmetic on offsets computed before). *)
Lemma bind_not_panic {A B} (r : res A) (f : A -> res B) :
  r <> Panic -> (forall a, f a <> Panic) -> bind r f <> Panic.
Proof. intros Hr Hf. destruct r; cbn; auto; discriminate. Qed.

Definition safe {A} (Q : A -> Prop) (r : res A) : Prop :=
  match r with Val a => Q a | Panic => False | _ => True end.

Lemma safe_np {A} (Q : A -> Prop) r : safe Q r -> r <> Panic.
Proof. intros H E. rewrite E in H. exact H. Qed.

Lemma safe_bind {A B} (P : A -> Prop) (Q : B -> Prop) r f :
  safe P r -> (forall a, P a -> safe Q (f a)) -> safe Q (bind r f).
Proof. destruct r; cbn; auto. Qed.

Lemma np_safe {A} (r : res A) : r <> Panic -> safe (fun _ => True) r.
Proof. destruct r; cbn; auto. Qed.
