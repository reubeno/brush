(** C01 — theorems about the brace-sequence cores. *)
From BV Require Import Base.Prelude Base.Decimal NoPanic.Mach NoPanic.Brace.

Theorem no_panic_number : forall tok, number tok <> Panic.
Proof. intros tok. unfold number. destruct (parse_i64 tok); discriminate. Qed.

Theorem number_refuted : exists tok, number_tok tok = true /\ number_orig tok = Panic.
Proof.
  (* "-9223372036854775808": i64::MIN, whose digits alone exceed i64::MAX *)
  exists (map N.of_nat [45;57;50;50;51;51;55;50;48;51;54;56;53;52;55;55;53;56;48;56]%nat). vm_compute. split; reflexivity.
Qed.

Lemma split_sign_sign tok : fst (split_sign tok) = 1 \/ fst (split_sign tok) = -1.
Proof.
  destruct tok as [|[|p] r]; try (left; reflexivity).
  (* the first character is compared with the literals '-' and '+': walk its bits *)
  repeat (destruct p as [p|p|]; try (left; reflexivity)). right. reflexivity.
Qed.

Theorem number_orig_outside_known : forall tok,
  number_tok tok = true -> known_number tok = false -> number_orig tok <> Panic.
Proof.
  intros tok Hs Hk. unfold number_orig, number_tok, known_number in *.
  destruct (split_sign tok) as [sg ds] eqn:Es. destruct ds as [|c ds]; [discriminate|].
  cbn [all_digits] in Hs. apply andb_prop in Hs as [Hc _].
  destruct (parse_i64 (c :: ds)) as [v|] eqn:Ep; [|discriminate].
  pose proof (parse_i64_range _ _ Ep) as Hr. apply in_i64_pow in Hr.
  rewrite parse_i64_digit in Ep by exact Hc. apply parse_go_spec in Ep as [_ Ep]. specialize (Ep eq_refl).
  assert (Hsg : sg = 1 \/ sg = -1) by (pose proof (split_sign_sign tok) as X; rewrite Es in X; exact X).
  assert (Hin : in_i64 (v * sg) = true) by (apply in_i64_pow; destruct Hsg; subst; lia).
  unfold i64_mul. rewrite Hin. discriminate.
Qed.

Lemma asc_no_panic fuel : forall cur e k, asc fuel cur e k <> Panic.
Proof.
  induction fuel as [|f IH]; intros; cbn [asc]; [discriminate|].
  destruct (cur + k <=? e); [|discriminate].
  apply bind_not_panic; [apply IH|discriminate].
Qed.

Lemma desc_no_panic fuel : forall n e k, desc fuel n e k <> Panic.
Proof.
  induction fuel as [|f IH]; intros; cbn [desc]; [discriminate|].
  destruct (i64_min <=? n - k); [|discriminate].
  destruct (e <=? n - k); [|discriminate].
  apply bind_not_panic; [apply IH|discriminate].
Qed.

Theorem no_panic_numseq : forall fuel s e i, numseq fuel s e i <> Panic.
Proof.
  intros. unfold numseq. destruct (s <=? e); [apply asc_no_panic|apply desc_no_panic].
Qed.

Theorem numseq_refuted : exists fuel s e i,
  in_i64 s = true /\ in_i64 e = true /\ in_i64 i = true /\ numseq_orig fuel s e i = Panic.
Proof. exists 5%nat, 0, (- 9223372036854775807), 9223372036854775807. vm_compute. repeat split; reflexivity. Qed.

Lemma step_of_pos i : 1 <= step_of i.
Proof. unfold step_of. destruct (Z.abs i =? 0) eqn:E; [lia|]. apply Z.eqb_neq in E. lia. Qed.

Lemma div_step x k : 1 <= k -> x / k = (x - k) / k + 1.
Proof. intros Hk. replace x with ((x - k) + 1 * k) at 1 by lia. apply Z.div_add. lia. Qed.

(** termination with the exact number of elements: |end-start| / max 1 |inc| + 1 *)
Lemma asc_len fuel : forall cur e k, 1 <= k -> cur <= e ->
  (Z.to_nat ((e - cur) / k + 1) <= fuel)%nat ->
  exists l, asc fuel cur e k = Val l /\ Z.of_nat (length l) = (e - cur) / k + 1.
Proof.
  induction fuel as [|f IH]; intros cur e k Hk Hc Hf.
  - exfalso. assert (0 <= (e - cur) / k) by (apply Z.div_pos; lia). lia.
  - cbn [asc]. destruct (Z.leb_spec (cur + k) e) as [E|E].
    + rewrite (div_step (e - cur) k) in * by lia. replace (e - cur - k) with (e - (cur + k)) in * by lia.
      assert (0 <= (e - (cur + k)) / k) by (apply Z.div_pos; lia).
      destruct (IH (cur + k) e k Hk E) as [l [-> Hn]]; [lia|].
      exists (cur :: l). split; [reflexivity|]. cbn [length]. lia.
    + exists [cur]. split; [reflexivity|]. rewrite Z.div_small by lia. reflexivity.
Qed.

Lemma desc_len fuel : forall n e k, 1 <= k -> i64_min <= e -> e <= n ->
  (Z.to_nat ((n - e) / k + 1) <= fuel)%nat ->
  exists l, desc fuel n e k = Val l /\ Z.of_nat (length l) = (n - e) / k + 1.
Proof.
  induction fuel as [|f IH]; intros n e k Hk He Hc Hf.
  - exfalso. assert (0 <= (n - e) / k) by (apply Z.div_pos; lia). lia.
  - cbn [desc]. destruct (Z.leb_spec e (n - k)) as [E|E].
    + rewrite (proj2 (Z.leb_le i64_min (n - k))) by lia.
      rewrite (div_step (n - e) k) in * by lia. replace (n - e - k) with (n - k - e) in * by lia.
      assert (0 <= (n - k - e) / k) by (apply Z.div_pos; lia).
      destruct (IH (n - k) e k Hk He E) as [l [-> Hn]]; [lia|].
      exists (n :: l). split; [reflexivity|]. cbn [length]. lia.
    + exists [n]. split; [destruct (i64_min <=? n - k); reflexivity|]. rewrite Z.div_small by lia. reflexivity.
Qed.

Theorem numseq_terminates : forall s e i fuel,
  i64_min <= e ->
  (Z.to_nat (seq_count s e i) <= fuel)%nat ->
  exists l, numseq fuel s e i = Val l /\ Z.of_nat (length l) = seq_count s e i.
Proof.
  intros s e i fuel He Hf. unfold numseq, seq_count in *. pose proof (step_of_pos i) as Hk.
  destruct (Z.leb_spec s e) as [E|E].
  - rewrite Z.abs_eq in * by lia. apply asc_len; auto.
  - rewrite Z.abs_neq in * by lia.
    replace (- (e - s)) with (s - e) in * by lia. apply desc_len; auto; lia.
Qed.

Lemma bind_cons_inv {A} (r : res (list A)) x l' :
  bind r (fun l => Val (x :: l)) = Val l' -> exists l, r = Val l /\ l' = x :: l.
Proof. destruct r; cbn; try discriminate. intros [= <-]. eauto. Qed.

Lemma asc_elems fuel : forall cur e k l, asc fuel cur e k = Val l ->
  forall j, (j < length l)%nat -> nth j l 0 = cur + Z.of_nat j * k.
Proof.
  induction fuel as [|f IH]; intros cur e k l H j Hj; cbn [asc] in H; [discriminate|].
  destruct (cur + k <=? e).
  - apply bind_cons_inv in H as (l0 & H & ->). destruct j as [|j]; cbn [nth]; [lia|].
    cbn [length] in Hj. rewrite (IH _ _ _ _ H) by lia. lia.
  - inversion H; subst. destruct j as [|j]; cbn in *; lia.
Qed.

Lemma desc_elems fuel : forall n e k l, desc fuel n e k = Val l ->
  forall j, (j < length l)%nat -> nth j l 0 = n - Z.of_nat j * k.
Proof.
  induction fuel as [|f IH]; intros n e k l H j Hj; cbn [desc] in H; [discriminate|].
  destruct (i64_min <=? n - k); [destruct (e <=? n - k)|].
  - apply bind_cons_inv in H as (l0 & H & ->). destruct j as [|j]; cbn [nth]; [lia|].
    cbn [length] in Hj. rewrite (IH _ _ _ _ H) by lia. lia.
  - inversion H; subst. destruct j as [|j]; cbn in *; lia.
  - inversion H; subst. destruct j as [|j]; cbn in *; lia.
Qed.

Theorem numseq_elements : forall fuel s e i l, numseq fuel s e i = Val l ->
  forall j, (j < length l)%nat ->
  nth j l 0 = if s <=? e then s + Z.of_nat j * step_of i else s - Z.of_nat j * step_of i.
Proof.
  intros fuel s e i l H j Hj. unfold numseq in H. destruct (s <=? e).
  - eapply asc_elems; eauto.
  - eapply desc_elems; eauto.
Qed.

Lemma desc_orig_eq fuel : forall n e k, 1 <= k -> - 2 ^ 63 <= e - k -> e <= n <= 2 ^ 63 - 1 ->
  desc_orig fuel n e k = desc fuel n e k.
Proof.
  induction fuel as [|f IH]; intros n e k Hk He Hn; cbn [desc_orig desc]; [reflexivity|].
  rewrite i64_sub_ok by lia. rewrite (proj2 (Z.leb_le i64_min (n - k))) by (unfold i64_min; lia).
  destruct (Z.leb_spec e (n - k)); [|reflexivity]. rewrite IH by lia. reflexivity.
Qed.

Theorem numseq_orig_outside_known : forall fuel s e i,
  in_i64 s = true -> in_i64 i = true -> known_numseq s e i = false ->
  numseq_orig fuel s e i = numseq fuel s e i.
Proof.
  intros fuel s e i Hs Hi Hk. unfold numseq_orig, numseq, known_numseq in *.
  destruct (Z.leb_spec s e) as [|E]; [reflexivity|].
  rewrite (proj2 (Z.ltb_lt e s)) in Hk by exact E. cbn [andb] in Hk. apply orb_false_iff in Hk as [H1 H2].
  apply Z.ltb_ge in H1. apply Z.eqb_neq in H2. apply in_i64_pow in Hs, Hi. unfold i64_min, two63 in *.
  pose proof (step_of_pos i) as Hp.
  assert (Hk63 : step_of i < 2 ^ 63) by (unfold step_of in *; destruct (Z.abs i =? 0); lia).
  (* outside the class the step is below 2^63 and [e - step] is still an i64 *)
  rewrite wrap64_id by (apply in_i64_pow; lia). apply desc_orig_eq; lia.
Qed.

Lemma cdesc_no_panic fuel : forall c e k, cdesc fuel c e k <> Panic.
Proof.
  induction fuel as [|f IH]; intros; cbn [cdesc]; [discriminate|].
  destruct (0 <=? c - k); [|discriminate].
  destruct (char_of_u32 (c - k)); [|discriminate].
  destruct (e <=? z); [|discriminate].
  apply bind_not_panic; [apply IH|discriminate].
Qed.

Theorem no_panic_charseq : forall fuel s e i, charseq fuel s e i <> Panic.
Proof.
  intros. unfold charseq. destruct (s <=? e); [apply asc_no_panic|apply cdesc_no_panic].
Qed.

Theorem charseq_refuted : exists fuel s e i,
  is_letter s = true /\ is_letter e = true /\ in_i64 i = true /\ charseq_orig fuel s e i = Panic.
Proof. exists 5%nat, 98, 97, 200. vm_compute. repeat split; reflexivity. Qed.

(** the pinned code never terminates on {b..a..4294967296}: whatever the fuel, it runs out *)
Theorem charseq_orig_hangs : forall fuel, charseq_orig fuel 98 97 4294967296 = OutOfFuel.
Proof.
  intros fuel. unfold charseq_orig. change (98 <=? 97) with false. cbv iota.
  change (to_u32 (step_of 4294967296)) with 0.
  induction fuel as [|f IH]; [reflexivity|].
  cbn [cdesc_orig]. change (u32_sub 98 0) with (Some 98). cbv iota.
  change (char_of_u32 98) with (Some 98). cbv iota. change (97 <=? 98) with true. cbv iota.
  rewrite IH. reflexivity.
Qed.

Lemma char_of_u32_eq z c : char_of_u32 z = Some c -> c = z.
Proof. unfold char_of_u32. destruct (_ && _); intros H; inversion H; reflexivity. Qed.

Lemma cdesc_terminates fuel : forall c e k, 1 <= k -> e <= c ->
  (Z.to_nat (c - e) + 1 <= fuel)%nat -> exists l, cdesc fuel c e k = Val l.
Proof.
  induction fuel as [|f IH]; intros c e k Hk Hc Hf; [lia|].
  cbn [cdesc]. destruct (0 <=? c - k); [|eexists; reflexivity].
  destruct (char_of_u32 (c - k)) as [nx|] eqn:En; [|eexists; reflexivity].
  apply char_of_u32_eq in En. subst nx.
  destruct (e <=? c - k) eqn:E; [|eexists; reflexivity].
  apply Z.leb_le in E. destruct (IH (c - k) e k Hk E) as [l Hl]; [lia|].
  rewrite Hl. eexists; reflexivity.
Qed.

Lemma sat_u32_pos k : 1 <= k -> 1 <= sat_u32 k.
Proof. unfold sat_u32, two32. intros. destruct (k <? 2 ^ 32); lia. Qed.

Theorem charseq_terminates : forall s e i fuel, 0 <= e ->
  (Z.to_nat (Z.abs (s - e)) + 1 <= fuel)%nat -> exists l, charseq fuel s e i = Val l.
Proof.
  intros s e i fuel He Hf. unfold charseq. pose proof (step_of_pos i) as Hk.
  destruct (Z.leb_spec s e) as [E|E].
  - destruct (asc_len fuel s e (step_of i) Hk E) as [l [Hl _]]; [|eauto].
    assert ((e - s) / step_of i <= e - s) by (apply Z.div_le_upper_bound; nia).
    rewrite Z.abs_neq in Hf by lia. lia.
  - rewrite Z.abs_eq in Hf by lia. apply cdesc_terminates; auto using sat_u32_pos; lia.
Qed.

Lemma cdesc_orig_eq fuel : forall c e k, k <= e -> e <= c ->
  cdesc_orig fuel c e k = cdesc fuel c e k.
Proof.
  induction fuel as [|f IH]; intros c e k Hk Hc; cbn [cdesc_orig cdesc]; [reflexivity|].
  unfold u32_sub. rewrite (proj2 (Z.leb_le 0 (c - k))) by lia.
  destruct (char_of_u32 (c - k)) as [nx|] eqn:En; [|reflexivity].
  apply char_of_u32_eq in En. subst nx.
  destruct (Z.leb_spec e (c - k)); [|reflexivity]. rewrite IH by lia. reflexivity.
Qed.

Theorem charseq_orig_outside_known : forall fuel s e i,
  known_charseq s e i = false -> charseq_orig fuel s e i = charseq fuel s e i.
Proof.
  intros fuel s e i Hk. unfold charseq_orig, charseq, known_charseq in *.
  destruct (Z.leb_spec s e) as [|E]; [reflexivity|].
  rewrite (proj2 (Z.ltb_lt e s)) in Hk by exact E. cbn [andb] in Hk. apply orb_false_iff in Hk as [H1 H2].
  apply Z.ltb_ge in H1. apply Z.leb_gt in H2. pose proof (step_of_pos i) as Hp.
  (* outside the class the step fits u32 (both conversions are the identity) and does not exceed [e] *)
  assert (Hu : to_u32 (step_of i) = step_of i) by (unfold to_u32; apply Z.mod_small; lia).
  assert (Hs : sat_u32 (step_of i) = step_of i).
  { unfold sat_u32. destruct (step_of i <? two32) eqn:X; [reflexivity|]. apply Z.ltb_ge in X. lia. }
  rewrite Hu, Hs. apply cdesc_orig_eq; lia.
Qed.
