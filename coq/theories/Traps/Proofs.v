(** C16 / C18 — the invariant of the interpreter: what an execution of any command in any state
    does to the trace, the active-handler marks and the two stacks. *)
From BV Require Import Base.Prelude Traps.Syntax Traps.Model Traps.Spec.

Definition flags (s : st) : act := (a_exit s, a_err s).

Definition okerr (r : res) : bool := match r with ROk _ _ | RErr _ _ => true | _ => false end.
Definition is_exec (r : res) : bool := match r with RExec _ => true | _ => false end.

Lemma scan_app stk a b : scan stk (a ++ b) = match scan stk a with Some k => scan k b | None => None end.
Proof.
  revert stk; induction a as [|e a IH]; intros stk; [reflexivity|].
  cbn [app scan]. destruct e as [? ? | g ? | g ? | |]; destruct stk as [|top stk]; try reflexivity; try apply IH.
  - destruct (act_get g top); [reflexivity | apply IH].
  - destruct (act_get g top); [apply IH | reflexivity].
Qed.

Lemma count_start_app g a b : count_start g (a ++ b) = (count_start g a + count_start g b)%nat.
Proof. unfold count_start. rewrite filter_app, app_length. reflexivity. Qed.

Lemma count_start_cons g e tr :
  count_start g (e :: tr) = ((if is_start g e then 1 else 0) + count_start g tr)%nat.
Proof. unfold count_start. cbn [filter]. destruct (is_start g e); reflexivity. Qed.

Lemma act_get_set g b a : act_get g (act_set g b a) = b.
Proof. destruct g, a; reflexivity. Qed.
Lemma act_set_set g b c a : act_set g b (act_set g c a) = act_set g b a.
Proof. destruct g, a; reflexivity. Qed.
Lemma act_set_same g a : act_set g (act_get g a) a = a.
Proof. destruct g, a; reflexivity. Qed.

Lemma scan_handler g z x a rest inner :
  act_get g a = false ->
  scan (act_set g true a :: rest) inner = Some (act_set g true a :: rest) ->
  scan (a :: rest) (EvStart g z :: inner ++ [EvEnd g x]) = Some (a :: rest).
Proof.
  intros Ea Hs. cbn [scan]. rewrite Ea, scan_app, Hs. cbn [scan].
  rewrite act_get_set, act_set_set, <- Ea, act_set_same. reflexivity.
Qed.

(** [bal]: the execution came back (result or error) rather than being replaced by exec;
    [n]: how many times the EXIT handler was started. *)
Definition Step (bal : bool) (n : nat) (s s' : st) : Prop :=
  exists new, out s' = out s ++ new
    /\ count_start SExit new = n
    /\ (forall rest, exists a', scan (flags s :: rest) new = Some (a' :: rest) /\ (bal = true -> a' = flags s))
    /\ (bal = true -> frames s' = frames s /\ scopes s' = scopes s /\ sub s' = sub s /\ flags s' = flags s).

(** The relations below reach a state only through these five projections, so a setter of any
    other field is invisible to them up to conversion. *)
Definition same (s s' : st) : Prop :=
  out s = out s' /\ frames s = frames s' /\ scopes s = scopes s' /\ sub s = sub s' /\ flags s = flags s'.

Lemma same_refl s : same s s. Proof. repeat split. Qed.
Lemma same_sym s s' : same s s' -> same s' s.
Proof. intros (a & b & c & d & e). repeat split; congruence. Qed.
Lemma same_trans s s' s'' : same s s' -> same s' s'' -> same s s''.
Proof. intros (a & b & c & d & e) (a' & b' & c' & d' & e'). repeat split; congruence. Qed.

Lemma same_set_status z s : same s (set_status z s). Proof. repeat split. Qed.
Lemma same_set_trap g h s : same s (set_trap g h s). Proof. destruct g; repeat split. Qed.
Lemma same_set_errexit b s : same s (set_errexit b s). Proof. repeat split. Qed.
Lemma same_set_errtrace b s : same s (set_errtrace b s). Proof. repeat split. Qed.
#[export] Hint Resolve same_set_status same_set_trap same_set_errexit same_set_errtrace : same.

Lemma step_refl b s : Step b 0 s s.
Proof.
  exists []. rewrite app_nil_r. repeat split; try reflexivity.
  intros rest; exists (flags s); split; [reflexivity | auto].
Qed.

Lemma step_same_lr b n s0 s s' s'' : same s0 s -> same s' s'' -> Step b n s s' -> Step b n s0 s''.
Proof.
  intros (a & b' & c & d & e) (a' & b'' & c' & d' & e') (new & Ho & Hc & Hs & Hb).
  exists new. split; [congruence|]. split; [assumption|]. split; [rewrite e; exact Hs|].
  intros H. destruct (Hb H) as (? & ? & ? & ?). repeat split; congruence.
Qed.

Lemma step_same_r b n s s' s'' : Step b n s s' -> same s' s'' -> Step b n s s''.
Proof. intros H Hs. exact (step_same_lr _ _ _ _ _ _ (same_refl s) Hs H). Qed.

Lemma step_same_l b n s0 s s' : same s0 s -> Step b n s s' -> Step b n s0 s'.
Proof. intros Hs. apply step_same_lr; [exact Hs | apply same_refl]. Qed.

Lemma step_same b s s' : same s s' -> Step b 0 s s'.
Proof. apply step_same_r, step_refl. Qed.

Lemma step_balanced {n s s'} :
  Step true n s s' -> frames s' = frames s /\ scopes s' = scopes s /\ sub s' = sub s /\ flags s' = flags s.
Proof. intros (_ & _ & _ & _ & Hb). exact (Hb eq_refl). Qed.

Lemma step_scan {n s s'} :
  Step true n s s' ->
  exists new, out s' = out s ++ new /\ count_start SExit new = n
              /\ forall rest, scan (flags s :: rest) new = Some (flags s :: rest).
Proof.
  intros (new & Ho & Hc & Hs & _). exists new. split; [exact Ho|]. split; [exact Hc|].
  intros rest. destruct (Hs rest) as (a' & Ha' & Hb'). rewrite (Hb' eq_refl) in Ha'. exact Ha'.
Qed.

Lemma step_trans b n m s s1 s2 : Step true n s s1 -> Step b m s1 s2 -> Step b (n + m) s s2.
Proof.
  intros H1 (new2 & Ho2 & Hc2 & Hs2 & Hb2).
  destruct (step_balanced H1) as (Hf & Hsc & Hsu & Hfl). destruct (step_scan H1) as (new1 & Ho1 & Hc1 & Hs1).
  exists (new1 ++ new2). split; [rewrite Ho2, Ho1, app_assoc; reflexivity|].
  split; [rewrite count_start_app; congruence|]. split.
  - intros rest. rewrite scan_app, Hs1, <- Hfl. apply Hs2.
  - intros H. destruct (Hb2 H) as (? & ? & ? & ?). repeat split; congruence.
Qed.

Lemma step_bal b n s s' : Step true n s s' -> Step b n s s'.
Proof.
  destruct b; [auto|]. intros (new & Ho & Hc & Hs & Hb). exists new. repeat split; auto; try discriminate.
  intros rest. destruct (Hs rest) as (a' & ? & ?). exists a'. split; [assumption | discriminate].
Qed.

Lemma step_echo t z s : Step true 0 s (emit (EvEcho t z) s).
Proof.
  exists [EvEcho t z]. repeat split.
  intros rest; exists (flags s); split; [reflexivity | auto].
Qed.
#[export] Hint Resolve step_refl step_same step_echo : step.

(** An execution starts no EXIT handler; inside a subshell nothing replaces the shell. *)
Definition Inv (s : st) (r : res) (s' : st) : Prop :=
  r <> RFuel -> Step (okerr r) 0 s s' /\ ((0 < sub s)%nat -> is_exec r = false).

Lemma inv_ok s r s' : okerr r = true -> Step true 0 s s' -> Inv s r s'.
Proof.
  intros Hk Hs _. rewrite Hk. split; [assumption|]. intros _. destruct r; try reflexivity; discriminate.
Qed.

Lemma inv_refl s r : okerr r = true -> Inv s r s.
Proof. intros H. apply inv_ok; [assumption | apply step_refl]. Qed.

Lemma inv_ret {r s r' s'} : (r, s) = (r', s') -> okerr r = true -> Inv s r' s'.
Proof. intros [= <- <-]. apply inv_refl. Qed.

Lemma okerr_fuel {r} : okerr r = true -> r <> RFuel.
Proof. intros H ->. discriminate. Qed.

Lemma inv_step {s r s'} : Inv s r s' -> okerr r = true -> Step true 0 s s'.
Proof. intros H Hk. rewrite <- Hk. apply H, okerr_fuel, Hk. Qed.

Lemma inv_balanced {s r s'} :
  Inv s r s' -> okerr r = true ->
  frames s' = frames s /\ scopes s' = scopes s /\ sub s' = sub s /\ flags s' = flags s.
Proof. intros H Hk. exact (step_balanced (inv_step H Hk)). Qed.

Lemma sub_preserved s r s' : Inv s r s' -> okerr r = true -> sub s' = sub s.
Proof. intros H Hk. apply (inv_balanced H Hk). Qed.

Lemma inv_relabel s r r' s' : Inv s r s' -> okerr r = true -> okerr r' = true -> Inv s r' s'.
Proof. intros H Hk Hk'. apply inv_ok; [exact Hk' | exact (inv_step H Hk)]. Qed.

Lemma okerr_catch r : okerr (catch r) = okerr r.
Proof. destruct r; reflexivity. Qed.
Lemma is_exec_catch r : is_exec (catch r) = is_exec r.
Proof. destruct r; reflexivity. Qed.

Lemma inv_catch s r s' : Inv s r s' -> Inv s (catch r) s'.
Proof.
  unfold Inv. rewrite okerr_catch, is_exec_catch. intros H Hnf. apply H.
  destruct r; try assumption; discriminate.
Qed.

Lemma inv_same_r s r s' s'' : Inv s r s' -> same s' s'' -> Inv s r s''.
Proof. intros H Hs Hnf. destruct (H Hnf) as [H1 H2]. split; [eapply step_same_r; eassumption | exact H2]. Qed.

Lemma inv_seq s r1 s1 r s' :
  Inv s r1 s1 -> okerr r1 = true -> Inv s1 r s' -> Inv s r s'.
Proof.
  intros H1 Hk H2 Hnf. pose proof (inv_step H1 Hk) as Hs1.
  destruct (H2 Hnf) as [Hs2 Hx2]. split.
  - exact (step_trans _ 0 0 _ _ _ Hs1 Hs2).
  - intros Hsub. apply Hx2. destruct (step_balanced Hs1) as (_ & _ & -> & _). exact Hsub.
Qed.

(** [k c]: what the model runs after a normal completion with code [c]; at a use it is found by
    unification with the [match] in the model's equation *)
Lemma inv_then s r1 s1 (k : Z -> res * st) r s' :
  Inv s r1 s1 ->
  match r1 with ROk FNormal c => k c | _ => (r1, s1) end = (r, s') ->
  (forall c, r1 = ROk FNormal c -> k c = (r, s') -> Inv s1 r s') ->
  Inv s r s'.
Proof.
  intros H1 H Hk. destruct r1 as [[] c| | |]; try (injection H as <- <-; exact H1).
  exact (inv_seq _ _ _ _ _ H1 eq_refl (Hk c eq_refl H)).
Qed.

(** an execution that does not come back (exec) never leaves *)
Lemma inv_scope k s r s2 :
  Inv (push_scope k s) r s2 -> Inv s r (if okerr r then snd (pop_scope k s2) else s2).
Proof.
  intros H Hnf. destruct (H Hnf) as [(new & Ho & Hc & Hs & Hb) Hx]. split; [|exact Hx].
  exists new. destruct (okerr r).
  - destruct (Hb eq_refl) as (Hf & Hsc & Hsu & Hfl). unfold pop_scope. rewrite Hsc. repeat split; assumption.
  - repeat split; try assumption; discriminate.
Qed.

(** a trap-handler frame is another matter: popping it also clears the active mark *)
Lemma inv_frame f s r s2 :
  (forall g, f <> FrTrap g) ->
  Inv (push_frame f s) r s2 -> Inv s r (if okerr r then pop_frame s2 else s2).
Proof.
  intros Hnt H Hnf. destruct (H Hnf) as [(new & Ho & Hc & Hs & Hb) Hx]. split; [|exact Hx].
  exists new. destruct (okerr r).
  - destruct (Hb eq_refl) as (Hf & Hsc & Hsu & Hfl). unfold pop_frame. rewrite Hf.
    destruct f; try (repeat split; assumption). destruct (Hnt s0 eq_refl).
  - repeat split; try assumption; discriminate.
Qed.

Lemma wcs_inv s k r s' :
  with_cmd_scope s k = (r, s') ->
  (forall r2 s2, k (push_scope ScCommand s) = (r2, s2) -> Inv (push_scope ScCommand s) r2 s2) ->
  Inv s r s'.
Proof.
  unfold with_cmd_scope. intros H Hk.
  destruct (k (push_scope ScCommand s)) as [r2 s2]. specialize (Hk _ _ eq_refl). apply inv_scope in Hk.
  destruct r2; injection H as <- <-; try exact Hk. exact (inv_catch _ _ _ Hk).
Qed.

Lemma wcs_leaf s (r0 : st -> res) (f : st -> st) r s' :
  with_cmd_scope s (fun s1 => (r0 s1, f s1)) = (r, s') ->
  (forall s1, okerr (r0 s1) = true) -> (forall s1, Step true 0 s1 (f s1)) -> Inv s r s'.
Proof.
  intros H Hk Hs. eapply wcs_inv; [exact H|]. intros r2 s2 [= <- <-]. apply inv_ok; [apply Hk | apply Hs].
Qed.

Lemma same_push_pop s : same s (snd (pop_scope ScCommand (push_scope ScCommand s))).
Proof. repeat split. Qed.

Section WithEx.
  Variable cf : cfg.
  Variable fuel : nat.
  Variable ex : bool -> cmd -> st -> res * st.
  Hypothesis Hex : forall sup c s r s', ex sup c s = (r, s') -> Inv s r s'.

  Lemma ex_list_inv sup c s r s' : ex_list ex sup c s = (r, s') -> Inv s r s'.
  Proof.
    unfold ex_list. destruct (ex sup c s) as [r1 s1] eqn:E. apply Hex in E.
    intros H. destruct r1; injection H as <- <-; [|exact E..].
    exact (inv_same_r _ _ _ _ E (same_set_status _ _)).
  Qed.

  Lemma run_program_inv sup cs acc s r s' :
    run_program ex sup cs acc s = (r, s') -> Inv s r s' /\ (forall f c, r <> RErr f c).
  Proof.
    revert acc s. induction cs as [|c cs IH]; intros acc s H.
    - injection H as <- <-. split; [apply inv_refl; reflexivity | discriminate].
    - cbn [run_program] in H. destruct (ex_list ex sup c s) as [r1 s1] eqn:E.
      apply ex_list_inv, inv_catch in E.
      (* only a normal completion, or a non-fatal error caught as one, goes on to the rest *)
      destruct r1 as [[]|[]| |]; cbn [catch into_result] in H, E;
        try (injection H as <- <-; split; [exact E | discriminate]).
      all: destruct (IH _ _ H) as [H2 Hne]; split; [exact (inv_seq _ _ _ _ _ E eq_refl H2) | exact Hne].
  Qed.

  (** [invoke_trap_handler] gets as far as running the handler *)
  Definition fires (g : sig) (s : st) : bool :=
    negb (get_active g s)
    && negb ((in_function s || (0 <? sub s)%nat) && negb (is_trap_inherited g s))
    && match get_trap g s with Some _ => true | None => false end.

  Lemma get_active_flags g s : get_active g s = act_get g (flags s).
  Proof. destruct g; reflexivity. Qed.

  Lemma invoke_idle g sup s : fires g s = false -> invoke cf ex g sup s = (ROk FNormal 0, s).
  Proof.
    unfold invoke, fires. destruct (get_active g s); [reflexivity|].
    destruct ((in_function s || (0 <? sub s)%nat) && negb (is_trap_inherited g s)); [reflexivity|].
    destruct (get_trap g s); [discriminate | reflexivity].
  Qed.

  (** A handler run is a step like any execution, except that it counts as a start of the EXIT
      handler when it is that one.  The start event carries the [$?] found, the end event the
      status of the `exit` the body ended in, if any; [$?] is put back, or with the repair set to
      that status. *)
  Lemma invoke_spec g sup s r s' :
    fires g s = true -> invoke cf ex g sup s = (r, s') ->
    (r <> RFuel ->
     Step (okerr r) (if sig_eqb g SExit then 1 else 0) s s' /\ ((0 < sub s)%nat -> is_exec r = false)) /\
    (okerr r = true ->
     let x := match r with ROk FExit c => Some c | _ => None end in
     (exists inner, out s' = out s ++ EvStart g (status s) :: inner ++ [EvEnd g x]) /\
     status s' = if fixed cf then match x with Some c => c | None => status s end else status s).
  Proof.
    unfold fires, invoke. intros Hf H.
    destruct (get_active g s) eqn:Ea; [discriminate|].
    destruct ((in_function s || (0 <? sub s)%nat) && negb (is_trap_inherited g s)); [discriminate|].
    destruct (get_trap g s) as [h|]; [clear Hf|discriminate].
    rewrite get_active_flags in Ea.
    set (z := status s) in *.
    set (s1 := emit (EvStart g z) (set_active g true (push_frame (FrTrap g) s))) in *.
    assert (Hs1 : out s1 = out s ++ [EvStart g z] /\ flags s1 = act_set g true (flags s)
                  /\ frames s1 = FrTrap g :: frames s /\ scopes s1 = scopes s /\ sub s1 = sub s)
      by (destruct g; repeat split).
    destruct Hs1 as (Ho1 & Hfl1 & Hfr1 & Hsc1 & Hsu1).
    destruct (run_program ex sup [h] (FNormal, 0) s1) as [r2 s2] eqn:E.
    apply run_program_inv in E as [H2 Hne].
    destruct r2 as [f code | fatal code | code | ].
    - (* the handler's program came back *)
      pose proof (inv_step H2 eq_refl) as Hst.
      destruct (step_balanced Hst) as (Hf2 & Hsc2 & Hsu2 & Hfl2).
      destruct (step_scan Hst) as (new & Ho & Hc & Hs).
      set (x := match ROk f code with ROk FExit c0 => Some c0 | _ => None end) in *.
      set (s4 := emit (EvEnd g x) (pop_frame s2)) in *.
      assert (H4 : out s4 = out s ++ EvStart g z :: new ++ [EvEnd g x]
                   /\ frames s4 = frames s /\ scopes s4 = scopes s /\ sub s4 = sub s /\ flags s4 = flags s).
      { unfold s4, pop_frame. rewrite Hf2, Hfr1.
        (* popping the handler's frame clears the mark that starting it set *)
        assert (Hfl3 : flags (set_active g false (set_frames (frames s) s2)) = flags s).
        { transitivity (act_set g false (flags s2)); [destruct g; reflexivity|].
          rewrite Hfl2, Hfl1, act_set_set. rewrite <- Ea at 1. apply act_set_same. }
        destruct g; cbn [emit set_out set_active set_frames out frames scopes sub] in *;
          rewrite Ho, Ho1, <- !app_assoc; repeat split; auto; congruence. }
      destruct H4 as (Ho4 & H4).
      assert (Hres : r = ROk f code /\ same s4 s'
                     /\ status s' = if fixed cf then match x with Some c => c | None => z end else z).
      { destruct f; [| |destruct (fixed cf)]; injection H as <- <-; repeat split; destruct (fixed cf); reflexivity. }
      destruct Hres as (-> & Hsame & Hz).
      split.
      + intros _. split; [|reflexivity]. apply step_same_r with s4; [|exact Hsame].
        exists (EvStart g z :: new ++ [EvEnd g x]). split; [exact Ho4|]. split.
        * rewrite count_start_cons, count_start_app, Hc. destruct g; reflexivity.
        * split; [|intros _; exact H4]. intros rest. exists (flags s). split; [|reflexivity].
          apply scan_handler; [exact Ea|]. rewrite <- Hfl1. apply Hs.
      + intros _. split; [|exact Hz]. exists new. rewrite <- (proj1 Hsame). exact Ho4.
    - exfalso. eapply Hne; reflexivity.
    - (* exec inside the handler *)
      injection H as <- <-. split; [|discriminate].
      intros _. destruct (H2 ltac:(discriminate)) as [(new & Ho & Hc & Hs & _) Hx]. split.
      + exists (EvStart g z :: new). split; [rewrite Ho, Ho1, <- app_assoc; reflexivity|].
        split; [rewrite count_start_cons, Hc; destruct g; reflexivity|]. split; [|discriminate].
        intros rest. cbn [scan]. rewrite Ea, <- Hfl1. destruct (Hs rest) as (a' & Ha' & _).
        exists a'. split; [assumption | discriminate].
      + rewrite <- Hsu1. exact Hx.
    - injection H as <- <-. split; [congruence | discriminate].
  Qed.

  Lemma invoke_err_inv sup s r s' : invoke cf ex SErr sup s = (r, s') -> Inv s r s'.
  Proof.
    intros H. destruct (fires SErr s) eqn:Ef.
    - exact (proj1 (invoke_spec _ _ _ _ _ Ef H)).
    - rewrite (invoke_idle _ _ _ Ef) in H. exact (inv_ret H eq_refl).
  Qed.

  Lemma for_loop_inv n sup b acc s r s' :
    for_loop ex n sup b acc s = (r, s') -> okerr acc = true -> Inv s r s'.
  Proof.
    revert acc s. induction n as [|n IH]; intros acc s H Hacc.
    - exact (inv_ret H Hacc).
    - cbn [for_loop] in H. destruct (ex_list ex sup b s) as [r1 s1] eqn:E. apply ex_list_inv in E.
      eapply inv_then; [exact E | exact H |]. intros c -> H2. exact (IH _ _ H2 eq_refl).
  Qed.

  Lemma while_loop_inv n sup c b acc s r s' :
    while_loop ex n sup c b acc s = (r, s') -> okerr acc = true -> Inv s r s'.
  Proof.
    revert acc s. induction n as [|n IH]; intros acc s H Hacc.
    - injection H as <- <-. intros Hnf; congruence.
    - cbn [while_loop] in H. destruct (ex_list ex true c s) as [rc s1] eqn:Ec. apply ex_list_inv in Ec.
      eapply inv_then; [exact Ec | exact H |]. intros code _ H2. cbn beta in H2.
      destruct (code =? 0).
      + destruct (ex_list ex sup b s1) as [r2 s2] eqn:Eb. apply ex_list_inv in Eb.
        eapply inv_then; [exact Eb | exact H2 |]. intros c2 -> H4. exact (IH _ _ H4 eq_refl).
      + exact (inv_ret H2 Hacc).
  Qed.

  Lemma finish_loop_inv s r2 s2 r s' : Inv s r2 s2 -> finish_loop (r2, s2) = (r, s') -> Inv s r s'.
  Proof.
    unfold finish_loop. cbn [fst snd]. intros H E. destruct r2; injection E as <- <-; [|exact H..].
    exact (inv_same_r _ _ _ _ H (same_set_status _ _)).
  Qed.

  Lemma call_function_inv sup body s r s' : call_function cf ex sup body s = (r, s') -> Inv s r s'.
  Proof.
    unfold call_function. intros H.
    destruct (match maxdepth cf with Some m => (m <=? func_depth s)%nat | None => false end).
    { exact (inv_ret H eq_refl). }
    destruct (ex sup body _) as [r2 s2] eqn:E. apply Hex in E.
    pose proof (inv_balanced E) as Hb. cbn in Hb.
    apply inv_scope, inv_frame in E; [|discriminate].
    destruct (okerr r2) eqn:Hk.
    2:{ destruct r2; try discriminate; injection H as <- <-; exact E. }
    (* the body came back, so [leave_function] finds the Local scope and the function frame *)
    destruct (Hb eq_refl) as (Hf & Hsc & _).
    unfold pop_scope in H, E. rewrite Hsc in H, E. cbn in H, E. rewrite Hf in H. cbn in H.
    destruct r2 as [[] c | fatal c | |]; try discriminate; injection H as <- <-; try exact E.
    exact (inv_relabel _ _ (ROk FNormal c) _ E eq_refl eq_refl).
  Qed.

  Lemma step_inv sup c s r s' : step cf fuel ex sup c s = (r, s') -> Inv s r s'.
  Proof.
    destruct c; cbn [step]; intros H;
      (* the simple commands that run nothing further and leave the stacks alone *)
      try (eapply wcs_leaf; [exact H | reflexivity | cbn beta; auto with step same]; fail).
    - (* CReturn *) eapply wcs_inv; [exact H|]. intros r2 s2 E. cbn beta in E.
      destruct (in_function _ || in_sourced_script _); injection E as <- <-; apply inv_refl; reflexivity.
    - (* CExpErr *) exact (inv_ret H eq_refl).
    - (* CAssignErr *) injection H as <- <-. apply inv_ok; [reflexivity | apply step_same, same_push_pop].
    - (* CAssignOnlyErr *) exact (inv_ret H eq_refl).
    - (* CRedirFail *) exact (inv_ret H eq_refl).
    - (* CCall *) eapply wcs_inv; [exact H|]. intros r2 s2 E. cbn beta in E.
      destruct (nth_error (funs cf) f) as [body|].
      + eapply call_function_inv; eassumption.
      + exact (inv_ret E eq_refl).
    - (* CEval *) eapply wcs_inv; [exact H|]. intros r2 s2 E. apply (run_program_inv _ _ _ _ _ _ E).
    - (* CSource *) eapply wcs_inv; [exact H|]. intros r2 s2 E. cbn beta in E.
      destruct (run_program ex sup [c] (FNormal, 0) _) as [r3 s3] eqn:E3.
      apply run_program_inv in E3 as [E3 _]. apply inv_frame in E3; [|discriminate].
      destruct r3 as [[] code| | |]; injection E as <- <-; try exact E3.
      exact (inv_relabel _ _ (ROk FNormal code) _ E3 eq_refl eq_refl).
    - (* CExec *) destruct (0 <? sub s)%nat eqn:Es.
      + eapply wcs_leaf; [exact H | reflexivity | auto with step].
      + injection H as <- <-. intros _. split; [apply step_refl|].
        intros Hs. apply Nat.ltb_ge in Es. lia.
    - (* CBrace *) eapply ex_list_inv; eassumption.
    - (* CSub *)
      set (s0 := emit EvSubBegin s) in *.
      set (child := mkst (status s0) (t_exit s0) (t_err s0) false false (errexit s0) (errtrace s0)
                         (frames s0) (scopes s0) (S (sub s0)) (out s0)) in *.
      destruct (ex_list ex sup c child) as [r2 s2] eqn:E. apply ex_list_inv in E.
      assert (Hst : okerr r2 = true -> Step true 0 s (emit EvSubEnd (set_out (out s2) s))).
      { intros Hk. destruct (inv_step E Hk) as (new & Ho & Hc & Hs & _).
        exists (EvSubBegin :: new ++ [EvSubEnd]). repeat split.
        - cbn [emit set_out out]. rewrite Ho. cbn [child s0 emit set_out out]. rewrite <- !app_assoc. reflexivity.
        - rewrite count_start_cons, count_start_app, Hc. reflexivity.
        - intros rest. cbn [scan]. rewrite scan_app.
          destruct (Hs (flags s :: rest)) as (a' & Ha' & _).
          change (scan ((false, false) :: flags s :: rest) new = Some (a' :: flags s :: rest)) in Ha'.
          rewrite Ha'. cbn [scan]. exists (flags s). auto. }
      destruct r2; injection H as <- <-.
      + apply inv_ok; [reflexivity | exact (Hst eq_refl)].
      + apply inv_ok; [reflexivity | exact (Hst eq_refl)].
      + (* inside a subshell `exec` does not replace the shell *)
        intros Hnf. destruct (E Hnf) as [_ Hx]. discriminate Hx. cbn. lia.
      + intros Hnf. congruence.
    - (* CIf *)
      destruct (ex_list ex true c1 s) as [rc s1] eqn:Ec. apply ex_list_inv in Ec.
      eapply inv_then; [exact Ec | exact H |]. intros code _ H2. cbn beta in H2.
      destruct (code =? 0); [eapply ex_list_inv; eassumption|].
      destruct e; [eapply ex_list_inv; eassumption|].
      injection H2 as <- <-. apply inv_ok; [reflexivity | auto with step same].
    - (* CFor *)
      destruct (for_loop ex n sup c (ROk FNormal 0) s) as [r2 s2] eqn:E.
      eapply finish_loop_inv; [|exact H]. exact (for_loop_inv _ _ _ _ _ _ _ E eq_refl).
    - (* CWhile *)
      destruct (while_loop ex fuel sup c1 c2 (ROk FNormal 0) s) as [r2 s2] eqn:E.
      eapply finish_loop_inv; [|exact H]. exact (while_loop_inv _ _ _ _ _ _ _ _ E eq_refl).
    - (* CPipe *)
      destruct (ex (sup || bang) c s) as [r1 s1] eqn:E. apply Hex in E.
      destruct r1 as [f code0 | | |]; try (injection H as <- <-; exact E).
      set (code := if bang && flow_eqb f FNormal then if code0 =? 0 then 1 else 0 else code0) in *.
      set (s2 := set_status code s1) in *.
      destruct (if negb (code =? 0) && negb (sup || bang)
                then match t_err s2 with Some _ => invoke cf ex SErr (sup || bang) s2 | None => (ROk FNormal 0, s2) end
                else (ROk FNormal 0, s2)) as [hr s3] eqn:Eh.
      assert (Hh : Inv s2 hr s3).
      { destruct (negb (code =? 0) && negb (sup || bang)); [destruct (t_err s2)|].
        - exact (invoke_err_inv _ _ _ _ Eh).
        - exact (inv_ret Eh eq_refl).
        - exact (inv_ret Eh eq_refl). }
      apply (inv_seq _ _ s2 _ _ E eq_refl).
      (* the handler's result is passed on only if it did not come back or, with the repair, ended in `exit` *)
      destruct hr as [[] hc | ? ? | ? | ]; [| |destruct (fixed cf)| | |]; injection H as <- <-; try exact Hh.
      all: eapply inv_relabel; [exact Hh | reflexivity..].
    - (* CAnd *)
      destruct (ex true c1 s) as [r1 s1] eqn:E. apply Hex in E.
      eapply inv_then; [exact E | exact H |]. intros code -> H2.
      destruct (code =? 0); [eapply Hex; eassumption|].
      exact (inv_ret H2 eq_refl).
    - (* COr *)
      destruct (ex true c1 s) as [r1 s1] eqn:E. apply Hex in E.
      eapply inv_then; [exact E | exact H |]. intros code -> H2.
      destruct (code =? 0); [|eapply Hex; eassumption].
      exact (inv_ret H2 eq_refl).
    - (* CSeq *)
      destruct (ex_list ex sup c1 s) as [r1 s1] eqn:E. apply ex_list_inv in E.
      eapply inv_then; [exact E | exact H |]. intros code _ H2. exact (ex_list_inv _ _ _ _ _ H2).
  Qed.
End WithEx.
Arguments run_program_inv {ex} Hex {sup cs acc s r s'}.
Arguments invoke_idle {cf ex g sup s}.
Arguments invoke_spec {cf ex} Hex {g sup s r s'}.

Theorem exec_inv cf fuel sup c s r s' : exec cf fuel sup c s = (r, s') -> Inv s r s'.
Proof.
  revert sup c s r s'. induction fuel as [|fuel IH]; intros sup c s r s' H.
  - cbn in H. inversion H; subst. intros Hnf; congruence.
  - cbn [exec] in H. eapply step_inv; [|exact H]. exact IH.
Qed.
