(** C16 / C18 — the theorems about whole runs, derived from the interpreter's invariant. *)
From BV Require Import Base.Prelude Traps.Syntax Traps.Model Traps.Spec Traps.Proofs.

(** C18 *)
Theorem depth_balanced cf fuel sup c s r s' :
  exec cf fuel sup c s = (r, s') -> okerr r = true ->
  scopes s' = scopes s /\ frames s' = frames s.
Proof.
  intros H Hk. destruct (inv_balanced (exec_inv _ _ _ _ _ _ _ H) Hk) as (? & ? & _). auto.
Qed.

(** a session: [run_string] once per command; it goes on after every result, `exit` included *)
Fixpoint session_run (cf : cfg) (fuel : nat) (cs : list cmd) (s : st) : option st :=
  match cs with
  | [] => Some s
  | c :: cs' =>
      match run_program (exec cf fuel) false [c] (FNormal, 0) s with
      | (ROk _ _, s1) => session_run cf fuel cs' s1
      | _ => None
      end
  end.

Fixpoint repeat_list {A} (n : nat) (l : list A) : list A :=
  match n with O => [] | S n' => l ++ repeat_list n' l end.

Lemma session_balanced cf fuel cs s s' :
  session_run cf fuel cs s = Some s' -> scopes s' = scopes s /\ frames s' = frames s.
Proof.
  revert s. induction cs as [|c cs IH]; intros s H.
  - inversion H; auto.
  - cbn [session_run] in H.
    destruct (run_program (exec cf fuel) false [c] (FNormal, 0) s) as [r s1] eqn:E.
    destruct r; try discriminate.
    destruct (run_program_inv (exec_inv cf fuel) E) as [Hi _].
    destruct (inv_balanced Hi eq_refl) as (Hf & Hs & _). destruct (IH _ H). split; congruence.
Qed.

Theorem iterate_same_depth cf fuel cs n s s1 sn :
  session_run cf fuel cs s = Some s1 ->
  session_run cf fuel (repeat_list n cs) s = Some sn ->
  length (scopes sn) = length (scopes s1) /\ length (frames sn) = length (frames s1).
Proof.
  intros H1 Hn. destruct (session_balanced _ _ _ _ _ H1). destruct (session_balanced _ _ _ _ _ Hn).
  split; congruence.
Qed.

Definition exit_of (r : res) : option Z := match r with ROk FExit c => Some c | _ => None end.

Lemma invoke_status {cf fuel g sup s r s'} :
  invoke cf (exec cf fuel) g sup s = (r, s') -> okerr r = true ->
  status s' = if fixed cf then match exit_of r with Some c => c | None => status s end else status s.
Proof.
  intros H Hk. destruct (fires g s) eqn:Ef.
  - destruct (invoke_spec (exec_inv cf fuel) Ef H) as [_ Hback]. exact (proj2 (Hback Hk)).
  - rewrite (invoke_idle Ef) in H. injection H as <- <-. destruct (fixed cf); reflexivity.
Qed.

(** handlers leave the [$?] of the interrupted flow unchanged (as found: always; with the repair:
    unless the handler's own run ends in `exit`) *)
Theorem handlers_preserve_status cf fuel g sup s r s' :
  invoke cf (exec cf fuel) g sup s = (r, s') -> okerr r = true ->
  (fixed cf = false \/ exit_of r = None) -> status s' = status s.
Proof.
  intros H Hk Hc. rewrite (invoke_status H Hk).
  destruct Hc as [-> | ->]; [reflexivity | destruct (fixed cf); reflexivity].
Qed.

Theorem handler_exit_status cf fuel g sup s s' f c :
  fixed cf = true -> invoke cf (exec cf fuel) g sup s = (ROk f c, s') -> exit_of (ROk f c) = Some c -> status s' = c.
Proof. intros Hf H Hx. rewrite (invoke_status H eq_refl), Hf, Hx. reflexivity. Qed.

Lemma stdin_loop_inv {cf fuel cs s r s'} :
  stdin_loop cf fuel cs s = (r, s') -> Inv s r s' /\ (forall f c, r <> RErr f c).
Proof.
  revert s. induction cs as [|c cs IH]; intros s H.
  - split; [exact (inv_ret H eq_refl) | injection H as <- _; discriminate].
  - cbn [stdin_loop] in H.
    destruct (run_program (exec cf fuel) false [c] (FNormal, 0) s) as [r1 s1] eqn:E.
    apply (run_program_inv (exec_inv cf fuel)) in E as [H1 Hne].
    destruct r1 as [[] code1 | | |].
    (* only `exit` leaves the loop; every other result goes on to the next command *)
    1, 2: destruct (IH _ H) as (H2 & Hne2); split; [exact (inv_seq _ _ _ _ _ H1 eq_refl H2) | exact Hne2].
    all: injection H as <- <-; split; [exact H1 | exact Hne].
Qed.

Definition start_st (fe : frontend) : st := push_frame (top_frame fe) init_st.

Lemma run_body_inv {cf fe fuel cs r s1} :
  run_body cf fe fuel cs init_st = (r, s1) -> Inv (start_st fe) r s1 /\ (forall f c, r <> RErr f c).
Proof.
  unfold run_body. fold (start_st fe). intros H. destruct fe.
  - exact (run_program_inv (exec_inv cf fuel) H).
  - exact (run_program_inv (exec_inv cf fuel) H).
  - exact (stdin_loop_inv H).
Qed.

(** When the program proper has come back only the front-end's frame is left, no handler is
    marked active and we are in no subshell: a registered EXIT handler will fire. *)
Lemma after_body {cf fe fuel cs f code s1} :
  run_body cf fe fuel cs init_st = (ROk f code, s1) ->
  let s2 := set_frames [] s1 in
  leave_top fe s1 = Some s2
  /\ fires SExit s2 = match t_exit s1 with Some _ => true | None => false end
  /\ count_start SExit (out s1) = 0%nat
  /\ scan [(false, false)] (out s1) = Some [(false, false)]
  /\ flags s2 = (false, false).
Proof.
  intros H. destruct (run_body_inv H) as (Hi & _).
  pose proof (inv_step Hi eq_refl) as Hs1.
  destruct (step_balanced Hs1) as (Hf & _ & Hsu & Hfl). destruct (step_scan Hs1) as (new & Ho & Hc & Hs).
  (* [start_st fe] is a closed state: its fields compute *)
  change (frames s1 = [top_frame fe]) in Hf. change (flags s1 = (false, false)) in Hfl.
  change (sub s1 = 0%nat) in Hsu. change (out s1 = new) in Ho.
  split; [unfold leave_top, pop_frame; rewrite Hf; destruct fe; reflexivity|].
  split.
  { unfold fires. cbn [get_active a_exit set_frames in_function frames existsb sub get_trap t_exit is_trap_inherited].
    injection Hfl as -> _. rewrite Hsu. destruct (t_exit s1); reflexivity. }
  split; [rewrite Ho; exact Hc|]. split; [|exact Hfl]. rewrite Ho. exact (Hs []).
Qed.

Definition registered_at_end (cf : cfg) (fe : frontend) (fuel : nat) (cs : list cmd) : bool :=
  match t_exit (snd (run_body cf fe fuel cs init_st)) with Some _ => true | None => false end.

(** the status with which the program proper ended (exit n, last command, fatal error, errexit) *)
Definition terminating_status (cf : cfg) (fe : frontend) (fuel : nat) (cs : list cmd) : Z :=
  status (snd (run_body cf fe fuel cs init_st)).

Definition body_trace (cf : cfg) (fe : frontend) (fuel : nat) (cs : list cmd) : list event :=
  out (snd (run_body cf fe fuel cs init_st)).

(** Everything the C16 theorems say about a run that ends by itself. *)
Lemma run_done {cf fe fuel cs z sf} :
  run cf fe fuel cs = Done z sf ->
  let pre := body_trace cf fe fuel cs in
  let code := terminating_status cf fe fuel cs in
  let reg := registered_at_end cf fe fuel cs in
  count_start SExit pre = 0%nat /\
  count_start SExit (out sf) = (if reg then 1 else 0)%nat /\ no_reentry (out sf) /\
  if reg
  then exists hr, exit_handler_last pre (out sf) code (exit_of hr) /\
                  z = (if fixed cf then match exit_of hr with Some c => c | None => code end else code)
  else z = code.
Proof.
  unfold run, registered_at_end, terminating_status, body_trace.
  destruct (run_body cf fe fuel cs init_st) as [r s1] eqn:E. cbn [snd].
  destruct (run_body_inv E) as (_ & Hne).
  destruct r as [f code | fatal c | c | ]; try discriminate; [|exfalso; eapply Hne; reflexivity].
  destruct (after_body E) as (Hl & Hfi & Hc & Hsc & Hfl2).
  rewrite Hl. unfold on_exit_and_status. cbn [t_exit set_frames]. intros H.
  split; [exact Hc|].
  destruct (t_exit s1) as [h|].
  2:{ injection H as <- <-. auto. }
  destruct (invoke cf (exec cf fuel) SExit false _) as [hr s3] eqn:Ei.
  assert (Hk : okerr hr = true).
  { destruct hr; try discriminate; reflexivity. }
  assert (Hz : z = status s3 /\ sf = s3) by (destruct hr; inversion H; subst; auto; discriminate).
  destruct Hz as [-> ->].
  destruct (invoke_spec (exec_inv cf fuel) Hfi Ei) as (Hstep & Hback).
  destruct (Hstep (okerr_fuel Hk)) as [Hst _]. rewrite Hk in Hst.
  destruct (step_scan Hst) as (new & Hon & Hcn & Hsn).
  destruct (Hback Hk) as [(inner & Hout) Hs3].
  split; [rewrite Hon; cbn [out set_frames]; rewrite count_start_app, Hc, Hcn; reflexivity|].
  split; [|exists hr; split; [exists inner; exact Hout | exact Hs3]].
  unfold no_reentry. rewrite Hon. cbn [out set_frames]. rewrite scan_app, Hsc, <- Hfl2. exact (Hsn []).
Qed.

(** exactly once *)
Theorem exit_trap_once cf fe fuel cs z sf :
  run cf fe fuel cs = Done z sf ->
  count_start SExit (out sf) = if registered_at_end cf fe fuel cs then 1%nat else 0%nat.
Proof.
  intros H. apply (run_done H).
Qed.

(** last, and with the terminating status in [$?] *)
Theorem exit_trap_last_sees_status cf fe fuel cs z sf :
  run cf fe fuel cs = Done z sf -> registered_at_end cf fe fuel cs = true ->
  exists x, exit_handler_last (body_trace cf fe fuel cs) (out sf) (terminating_status cf fe fuel cs) x
            /\ count_start SExit (body_trace cf fe fuel cs) = 0%nat.
Proof.
  intros H Hreg. destruct (run_done H) as (Hc & _ & _ & Hr). cbn zeta in Hr. rewrite Hreg in Hr.
  destruct Hr as (hr & Hl & _). eauto.
Qed.

Theorem no_reentry_run cf fe fuel cs z sf : run cf fe fuel cs = Done z sf -> no_reentry (out sf).
Proof.
  intros H. apply (run_done H).
Qed.

(** the process ends with the terminating status unless the EXIT handler itself calls exit
    ([x = Some n]) *)
Definition final_status_stmt (cf : cfg) : Prop :=
  forall fe fuel cs z sf, run cf fe fuel cs = Done z sf ->
  let code := terminating_status cf fe fuel cs in
  if registered_at_end cf fe fuel cs
  then exists x, exit_handler_last (body_trace cf fe fuel cs) (out sf) code x
                 /\ z = match x with Some c => c | None => code end
  else z = code.

(** what [final_status_stmt] says of one run *)
Definition final_status_at cf fe fuel cs z (sf : st) : Prop :=
  let code := terminating_status cf fe fuel cs in
  if registered_at_end cf fe fuel cs
  then exists x, exit_handler_last (body_trace cf fe fuel cs) (out sf) code x
                 /\ z = match x with Some c => c | None => code end
  else z = code.

Lemma handler_exited_app a b : handler_exited (a ++ b) = handler_exited a || handler_exited b.
Proof. unfold handler_exited. apply existsb_app. Qed.

Lemma handler_exited_last pre e inner g x :
  handler_exited (pre ++ e :: inner ++ [EvEnd g x]) = false -> x = None.
Proof.
  change (e :: inner ++ [EvEnd g x]) with ([e] ++ inner ++ [EvEnd g x]). rewrite !handler_exited_app.
  destruct x; [|reflexivity]. cbn. rewrite !orb_true_r. discriminate.
Qed.

(** it holds with the repair, and without it as long as no handler run ends in `exit` *)
Lemma final_status_when {cf fe fuel cs z sf} :
  run cf fe fuel cs = Done z sf -> fixed cf = true \/ handler_exited (out sf) = false ->
  final_status_at cf fe fuel cs z sf.
Proof.
  intros H Hc. destruct (run_done H) as (_ & _ & _ & Hr). unfold final_status_at. cbn zeta in *.
  destruct (registered_at_end cf fe fuel cs); [|exact Hr].
  destruct Hr as (hr & Hl & Hz). exists (exit_of hr). split; [exact Hl|].
  destruct Hc as [Hf | Hk].
  - rewrite Hf in Hz. exact Hz.
  - destruct Hl as (inner & Hl). rewrite Hl in Hk. apply handler_exited_last in Hk.
    rewrite Hk in Hz |- *. destruct (fixed cf); exact Hz.
Qed.

Theorem final_status cf : fixed cf = true -> final_status_stmt cf.
Proof. intros Hf fe fuel cs z sf H. exact (final_status_when H (or_introl Hf)). Qed.

(** the tree as found: whatever the handler does *)
Theorem final_status_as_found cf fe fuel cs z sf :
  fixed cf = false -> run cf fe fuel cs = Done z sf -> z = terminating_status cf fe fuel cs.
Proof.
  intros Hf H. destruct (run_done H) as (_ & _ & _ & Hr). cbn zeta in Hr.
  destruct (registered_at_end cf fe fuel cs); [|exact Hr].
  destruct Hr as (hr & _ & Hz). rewrite Hf in Hz. exact Hz.
Qed.

(** `trap 'exit 7' EXIT; exit 3` *)
Definition kf_prog : list cmd := [CPipe false (CTrap SExit (Some (CPipe false (CExit (Some 7))))); CPipe false (CExit (Some 3))].

Theorem final_status_refuted : ~ final_status_stmt (mkcfg [] false None).
Proof.
  intros H. specialize (H FeDashC 20%nat kf_prog).
  remember (run (mkcfg [] false None) FeDashC 20 kf_prog) as f eqn:E. vm_compute in E.
  destruct f as [z sf| |]; try discriminate. inversion E; subst.
  (* the run ends with 3 and its trace is [EvStart SExit 3; EvEnd SExit (Some 7)] *)
  specialize (H _ _ eq_refl). vm_compute in H. destruct H as (x & (inner & Hl) & Hz).
  injection Hl as Hl. apply (app_inj_tail [] inner) in Hl as [_ [= <-]]. discriminate.
Qed.

(** outside the known class the statement holds for the tree as found *)
Theorem final_status_outside_known cf fe fuel cs z sf :
  fixed cf = false -> run cf fe fuel cs = Done z sf -> handler_exited (out sf) = false ->
  let code := terminating_status cf fe fuel cs in
  if registered_at_end cf fe fuel cs
  then exists x, exit_handler_last (body_trace cf fe fuel cs) (out sf) code x
                 /\ z = match x with Some c => c | None => code end
  else z = code.
Proof.
  intros _ H Hk. exact (final_status_when H (or_intror Hk)).
Qed.

Theorem exec_no_trap cf fe fuel cs c s1 :
  run_body cf fe fuel cs init_st = (RExec c, s1) ->
  run cf fe fuel cs = Replaced c s1 /\ count_start SExit (out s1) = 0%nat.
Proof.
  intros E. unfold run. rewrite E. split; [reflexivity|].
  destruct (run_body_inv E) as (Hi & _).
  destruct (Hi ltac:(discriminate)) as [(new & Ho & Hc & _) _].
  rewrite Ho. exact Hc.
Qed.

(** non-vacuity: a run in which the EXIT handler is registered, an ERR handler fires inside a
    function, and the program ends through `exit` inside `eval` inside a loop *)
Definition ex_funs : list cmd := [CBrace (CSeq (CPipe false CFalse) (CPipe false (CEval (CPipe false (CExit (Some 4))))))].
Definition ex_prog : list cmd :=
  [CPipe false (CTrap SExit (Some (CSeq (CPipe false (CEcho 1)) (CPipe false CFalse))));
   CPipe false (CTrap SErr (Some (CPipe false (CEcho 2))));
   CPipe false (CSetTrace true);
   CPipe false (CFor 2 (CPipe false (CCall 0)))].

Theorem nonvacuous :
  exists z sf, run (mkcfg ex_funs true None) FeScript 30 ex_prog = Done z sf
    /\ registered_at_end (mkcfg ex_funs true None) FeScript 30 ex_prog = true
    /\ z = 4 /\ count_start SErr (out sf) = 6%nat.
Proof. eexists _, _. vm_compute. repeat split. Qed.
