(** C09 — the environment handed to child processes ([iter_exported] + [compose_std_command])
    against the specification "visible, exported and set"; well-formedness of the scope maps;
    the attribute transforms. *)
From BV Require Import Base.Prelude Scope.Vars Scope.Env Scope.Prog Scope.EnvLemmas
  Scope.ReadonlyProofs Scope.ScopeProofs.

Definition spec_child (n : str) (e : env) : option str :=
  match get n e with
  | Some x => if v_exp x && is_set (v_val x) then Some (scalar_view (v_val x)) else None
  | None => None
  end.

(** maps with unique keys (what a HashMap is) *)
Definition wf_map (m : vmap) : Prop := NoDup (map fst m).
Definition wf_env (e : env) : Prop := Forall (fun s => wf_map (snd s)) e.

Lemma mget_none_iff n m : mget n m = None <-> ~ In n (map fst m).
Proof.
  induction m as [|[k v] m IH]; cbn; [tauto|].
  destruct (str_eqb_spec n k) as [->|Hne]; [split; [discriminate | tauto]|].
  rewrite IH. split; [intros H [E|Hin]; [congruence | tauto] | tauto].
Qed.

Lemma nodup_snoc {A} (l : list A) (a : A) : NoDup l -> ~ In a l -> NoDup (l ++ [a]).
Proof.
  induction l as [|b l IH]; cbn; intros H N; [constructor; [tauto | constructor]|].
  inversion H; subst. constructor.
  - rewrite in_app_iff. cbn. intros [X|[X|[]]]; [tauto | subst; tauto].
  - apply IH; tauto.
Qed.

Lemma mset_keys n v m :
  map fst (mset n v m) = map fst m \/ (mget n m = None /\ map fst (mset n v m) = map fst m ++ [n]).
Proof.
  induction m as [|[k x] m IH]; cbn; [right; split; reflexivity|].
  destruct (str_eqb n k) eqn:E; cbn; [left; reflexivity|].
  destruct IH as [->|[G ->]]; [left; reflexivity | right; split; [exact G | reflexivity]].
Qed.

Lemma wf_mset n v m : wf_map m -> wf_map (mset n v m).
Proof.
  unfold wf_map. intros H. destruct (mset_keys n v m) as [->|[G ->]]; [exact H|].
  apply nodup_snoc; [exact H | apply mget_none_iff, G].
Qed.

Lemma mdel_keys_incl n m k : In k (map fst (mdel n m)) -> In k (map fst m).
Proof.
  induction m as [|[k' x] m IH]; cbn; [tauto|]. destruct (str_eqb n k'); cbn; [tauto|]. intros [H|H]; [tauto | right; exact (IH H)].
Qed.

Lemma wf_mdel n m : wf_map m -> wf_map (mdel n m).
Proof.
  unfold wf_map. induction m as [|[k x] m IH]; cbn; intros H; [constructor|].
  inversion H; subst. destruct (str_eqb n k); cbn; [assumption|].
  constructor; [intros X; apply mdel_keys_incl in X; tauto | apply IH; assumption].
Qed.

Section Closed.
  Variable P : env -> Prop.
  Hypothesis Pset : forall i n v e, P e -> P (scope_set i n v e).
  Hypothesis Pdel : forall i n e, P e -> P (scope_del i n e).
  Hypothesis Ppush : forall k e, P e -> P (push_scope k e).
  Hypothesis Ppop : forall k e, P e -> P (fst (pop_scope k e)).

  Theorem exec_closed : forall a e, P e -> P (env_of (exec a e)).
  Proof.
    intros a e.
    assert (HR : env_rel (fun e e' => P e -> P e') (fun _ _ => True) (fun _ => true)).
    { exact {| R_refl := fun e H => H;
               R_trans := fun e1 e2 e3 A B H => B (A H);
               R_frame := fun k e e1 A H => Ppop k e1 (A (Ppush k e H));
               R_set := fun i n x' e _ _ => Pset i n x' e;
               R_del := fun i n e _ _ => Pdel i n e |}. }
    exact (proj1 (exec_writes HR (var_rel_any _) safe_rel_all a eq_refl e)).
  Qed.
End Closed.

Lemma wf_scope_upd i f e : (forall m, wf_map m -> wf_map (f m)) -> wf_env e -> wf_env (scope_upd i f e).
Proof.
  intros Hf. revert i; induction e as [|[k m] e IH]; intros [|i] H; cbn; try assumption; inversion H; subst; constructor; cbn in *; auto.
  apply IH. assumption.
Qed.

Theorem exec_wf : forall a e, wf_env e -> wf_env (env_of (exec a e)).
Proof.
  apply exec_closed.
  - intros i n v e. apply wf_scope_upd. intros m. apply wf_mset.
  - intros i n e. apply wf_scope_upd. intros m. apply wf_mdel.
  - intros k e H. constructor; [constructor | exact H].
  - intros k [|[k' m] e] H; cbn; [constructor | inversion H; assumption].
Qed.

Lemma wf_env_new : wf_env env_new.
Proof. constructor; [constructor | constructor]. Qed.

(** [iter_exported] computes "first exported binding from the top" *)
Fixpoint first_exported (n : str) (e : env) : option var :=
  match e with
  | [] => None
  | (_, m) :: e' => match mget n (exported_of m) with Some x => Some x | None => first_exported n e' end
  end.

Lemma mget_app n a b : mget n (a ++ b) = match mget n a with Some x => Some x | None => mget n b end.
Proof. induction a as [|[k v] a IH]; cbn; [reflexivity|]. destruct (str_eqb n k); [reflexivity | exact IH]. Qed.

Lemma mget_merge_new n add : forall acc,
  mget n (merge_new acc add) = match mget n acc with Some x => Some x | None => mget n add end.
Proof.
  induction add as [|[k v] add IH]; intros acc; cbn [merge_new mget].
  - destruct (mget n acc); reflexivity.
  - destruct (mget k acc) eqn:K.
    + rewrite IH. destruct (mget n acc) eqn:A; [reflexivity|].
      destruct (str_eqb n k) eqn:E; [apply str_eqb_eq in E; subst; congruence | reflexivity].
    + rewrite IH, mget_app. cbn [mget]. destruct (mget n acc); [reflexivity|].
      destruct (str_eqb n k); reflexivity.
Qed.

Lemma mget_iter n : forall e acc,
  mget n (iter_exported_go acc e) = match mget n acc with Some x => Some x | None => first_exported n e end.
Proof.
  induction e as [|[k m] e IH]; intros acc; cbn [iter_exported_go first_exported].
  - destruct (mget n acc); reflexivity.
  - rewrite IH, mget_merge_new. destruct (mget n acc); [reflexivity|].
    destruct (mget n (exported_of m)); reflexivity.
Qed.

Lemma merge_new_nodup add : forall acc, NoDup (map fst acc) -> NoDup (map fst (merge_new acc add)).
Proof.
  induction add as [|[k v] add IH]; intros acc H; cbn [merge_new]; [exact H|].
  destruct (mget k acc) eqn:K; [apply IH; exact H|].
  apply IH. rewrite map_app. cbn. apply nodup_snoc; [exact H | apply mget_none_iff, K].
Qed.

Lemma iter_exported_nodup : forall e acc, NoDup (map fst acc) -> NoDup (map fst (iter_exported_go acc e)).
Proof.
  induction e as [|[k m] e IH]; intros acc H; cbn [iter_exported_go]; [exact H|].
  apply IH. apply merge_new_nodup. exact H.
Qed.

Lemma mget_exported_of n m : wf_map m ->
  mget n (exported_of m) = match mget n m with Some x => if v_exp x then Some x else None | None => None end.
Proof.
  unfold wf_map. induction m as [|[k v] m IH]; cbn [exported_of mget map fst]; intros H; [reflexivity|].
  inversion H as [|? ? Hn Hd]; subst.
  destruct (str_eqb n k) eqn:E.
  - apply str_eqb_eq in E. subst k. destruct (v_exp v) eqn:X.
    + cbn [mget]. rewrite str_eqb_refl. reflexivity.
    + rewrite (IH Hd). rewrite (proj2 (mget_none_iff _ _) Hn). reflexivity.
  - destruct (v_exp v); [cbn [mget]; rewrite E|]; apply IH; exact Hd.
Qed.

Lemma child_lookup n l : NoDup (map fst l) ->
  sm_get n (child_env_of l) =
  match mget n l with Some x => if is_set (v_val x) then Some (scalar_view (v_val x)) else None | None => None end.
Proof.
  induction l as [|[k v] l IH]; cbn [child_env_of mget map fst]; intros H; [reflexivity|].
  inversion H as [|? ? Hn Hd]; subst.
  destruct (str_eqb n k) eqn:E.
  - apply str_eqb_eq in E. subst k. destruct (is_set (v_val v)).
    + cbn [sm_get]. rewrite str_eqb_refl. reflexivity.
    + rewrite (IH Hd). rewrite (proj2 (mget_none_iff _ _) Hn). reflexivity.
  - destruct (is_set (v_val v)); [cbn [sm_get]; rewrite E|]; apply IH; exact Hd.
Qed.

Lemma get_cons n k m e : get n ((k, m) :: e) = match mget n m with Some x => Some x | None => get n e end.
Proof.
  unfold get, get_pol. cbn [find_pol admits]. destruct (mget n m) eqn:G.
  - unfold scope_get. cbn. exact G.
  - cbn [stops_after]. rewrite (find_any_ext n e e _ 0 eq_refl (fun _ => eq_refl)).
    destruct (find_pol PAnywhere 0 n e); reflexivity.
Qed.

(** the known class's complement: at the top-most binding of [n], either that binding is
    exported or no binding below it is *)
Fixpoint no_shine (n : str) (e : env) : Prop :=
  match e with
  | [] => True
  | (_, m) :: e' => match mget n m with
                    | Some x => v_exp x = true \/ first_exported n e' = None
                    | None => no_shine n e'
                    end
  end.

Lemma first_exported_visible n : forall e, wf_env e -> no_shine n e ->
  first_exported n e = match get n e with Some x => if v_exp x then Some x else None | None => None end.
Proof.
  induction e as [|[k m] e IH]; intros W N; [reflexivity|].
  inversion W as [|? ? Wm We]; subst. cbn [first_exported no_shine] in *. rewrite get_cons.
  rewrite (mget_exported_of n m Wm). destruct (mget n m) as [x|].
  - destruct (v_exp x) eqn:X; [reflexivity|]. destruct N as [N|N]; [congruence | exact N].
  - apply IH; assumption.
Qed.

Theorem exported_env_outside_known : forall e n, wf_env e -> no_shine n e ->
  sm_get n (child_env e) = spec_child n e.
Proof.
  intros e n W N. unfold child_env, spec_child.
  rewrite child_lookup by (apply iter_exported_nodup; constructor).
  unfold iter_exported. rewrite mget_iter. cbn [mget].
  rewrite (first_exported_visible n e W N).
  destruct (get n e) as [x|]; [|reflexivity]. destruct (v_exp x); reflexivity.
Qed.

(** the statement without the class is false on the code as it is *)
Definition shadow_env : env :=
  [(KLocal, [(va, mkVar (VStr [50%N]) false false false XNone)]);
   (KGlobal, [(va, mkVar (VStr [49%N]) true false false XNone)])].

Lemma exported_env_refuted : exists e n, wf_env e /\ sm_get n (child_env e) <> spec_child n e.
Proof.
  exists shadow_env, va. split.
  - repeat constructor; cbn; tauto.
  - vm_compute. discriminate.
Qed.

Lemma assign_scalar_table x s old :
  v_ro x = false -> v_val x = VStr old ->
  assign x (LScalar s) false =
  match xform_str (v_int x) (v_xf x) s with
  | Ok s' => (set_val x (VStr s'), None)
  | Err er => (x, Some er)
  end.
Proof.
  intros R V. unfold assign. rewrite R. unfold conv_lit, conv_str.
  destruct (xform_str (v_int x) (v_xf x) s) as [s'|er]; cbn [bind mlift mfail]; [|reflexivity].
  rewrite V. reflexivity.
Qed.

Lemma xform_lower s : xform_str false XLower s = Ok (map lower_c s).
Proof. reflexivity. Qed.
Lemma xform_upper s : xform_str false XUpper s = Ok (map upper_c s).
Proof. reflexivity. Qed.
Lemma xform_integer t s : xform_str true t s = Ok (show_Z (or0 (parse_i64 s))).
Proof. reflexivity. Qed.

(** `declare -i x; x=1+2` stores 0 (bash: 3) *)
Lemma integer_attr_witness :
  xform_str true XNone [49; 43; 50]%N = Ok [48%N].
Proof. vm_compute. reflexivity. Qed.

(** the hypotheses of the theorems are satisfiable by non-trivial states *)
Definition ex_body : list action :=
  [ACmd [] (CBuiltin (BExport va (Some (LScalar [55%N], false)) false));
   ACmd [(va, None, LScalar [56%N], false)] (CFunc [AAssign va None (LScalar [57%N]) false; AReturn]);
   AAssign va None (LScalar [57%N]) true].

Lemma ex_nonvacuous :
  Forall (fun a => nu va a = true) ex_body /\
  Forall (fun a => ro_safe a = true) ex_body /\
  (exists x, get va ro_scalar_env = Some x /\ v_ro x = true) /\
  Forall (not_nested ro_scalar_env) [(va, None, LScalar [50%N], false)] /\
  wf_env shadow_env /\ no_shine va (tl shadow_env) /\ ~ no_shine va shadow_env.
Proof.
  repeat split.
  - repeat constructor.
  - repeat constructor.
  - eexists. split; vm_compute; reflexivity.
  - repeat constructor. vm_compute. discriminate.
  - repeat constructor; cbn; tauto.
  - vm_compute. left. reflexivity.
  - vm_compute. intros [H|H]; discriminate.
Qed.
