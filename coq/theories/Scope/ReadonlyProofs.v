(** C09 — the readonly invariant: no writer that goes through [assign], [assign_at_index],
    [unset_index] or [env_unset] (env.rs `try_unset_in_map`) changes the content or the readonly flag of a readonly
    variable, or removes it; the conversion done by `declare -a/-A` does, and `local` or a prefix
    assignment can shadow the variable (refutations). *)
From BV Require Import Base.Prelude Scope.Vars Scope.Env Scope.Prog Scope.EnvLemmas.

Definition var_ro_pres (x x' : var) : Prop :=
  v_ro x = true -> v_ro x' = true /\ content (v_val x') = content (v_val x).

Definition map_ro_pres (m m' : vmap) : Prop :=
  forall n x, mget n m = Some x -> v_ro x = true ->
    exists x', mget n m' = Some x' /\ v_ro x' = true /\ content (v_val x') = content (v_val x).

Definition scope_ro_pres (s s' : scope) : Prop := fst s = fst s' /\ map_ro_pres (snd s) (snd s').

(** scope by scope: every readonly variable is still there, still readonly, same content *)
Definition ro_pres (e e' : env) : Prop := Forall2 scope_ro_pres e e'.

Lemma map_ro_pres_refl m : map_ro_pres m m.
Proof. intros n x H R. exists x. auto. Qed.

Lemma ro_pres_refl e : ro_pres e e.
Proof. induction e; constructor; [split; [reflexivity | apply map_ro_pres_refl] | assumption]. Qed.

Lemma map_ro_pres_trans m1 m2 m3 : map_ro_pres m1 m2 -> map_ro_pres m2 m3 -> map_ro_pres m1 m3.
Proof.
  intros H12 H23 n x G R. destruct (H12 n x G R) as (x2 & G2 & R2 & C2).
  destruct (H23 n x2 G2 R2) as (x3 & G3 & R3 & C3). exists x3. repeat split; congruence.
Qed.

Lemma ro_pres_trans e1 e2 e3 : ro_pres e1 e2 -> ro_pres e2 e3 -> ro_pres e1 e3.
Proof.
  intros H12; revert e3; induction H12 as [|s1 s2 e1 e2 [K M] _ IH]; intros e3 H23; inversion H23; subst; constructor.
  - destruct H1 as [K' M']. split; [congruence | eapply map_ro_pres_trans; eassumption].
  - apply IH. assumption.
Qed.

Lemma ro_pres_push k e e' : ro_pres e e' -> ro_pres (push_scope k e) (push_scope k e').
Proof. intros H. constructor; [split; [reflexivity | apply map_ro_pres_refl] | exact H]. Qed.

Lemma ro_pres_pop_r k e e1 : ro_pres (push_scope k e) e1 -> ro_pres e (fst (pop_scope k e1)).
Proof. intros H. inversion H as [|? [k1 m1] ? ? _ H']; subst. exact H'. Qed.

Lemma ro_pres_scope_get e e' i n x :
  ro_pres e e' -> scope_get i n e = Some x -> v_ro x = true ->
  exists x', scope_get i n e' = Some x' /\ v_ro x' = true /\ content (v_val x') = content (v_val x).
Proof.
  intros H. revert i. unfold scope_get.
  induction H as [|[k m] [k' m'] e e' [_ M] _ IH]; intros [|i]; cbn; try discriminate.
  - apply M.
  - apply IH.
Qed.

Lemma mset_ro_pres n x' m :
  (forall x, mget n m = Some x -> var_ro_pres x x') -> map_ro_pres m (mset n x' m).
Proof.
  intros H n0 x G R. destruct (str_eqb_spec n0 n) as [->|Hne].
  - exists x'. rewrite mget_mset_same. destruct (H x G R). auto.
  - exists x. rewrite mget_mset_other by exact Hne. auto.
Qed.

Lemma mdel_ro_pres n m :
  (forall x, mget n m = Some x -> v_ro x = false) -> map_ro_pres m (mdel n m).
Proof.
  intros H n0 x G R. destruct (str_eqb_spec n0 n) as [->|Hne].
  - rewrite (H x G) in R. discriminate.
  - exists x. rewrite mget_mdel_other by exact Hne. auto.
Qed.

Lemma scope_upd_ro_pres (P : var -> Prop) i f n e :
  (forall m, (forall x, mget n m = Some x -> P x) -> map_ro_pres m (f m)) ->
  (forall x, scope_get i n e = Some x -> P x) -> ro_pres e (scope_upd i f e).
Proof.
  intros Hf. revert i; induction e as [|[k m] e IH]; intros [|i] H; cbn; try constructor.
  - split; [reflexivity | apply Hf, H].
  - apply ro_pres_refl.
  - split; [reflexivity | apply map_ro_pres_refl].
  - apply IH, H.
Qed.

Lemma scope_set_ro_pres i n x' e :
  (forall x, scope_get i n e = Some x -> var_ro_pres x x') -> ro_pres e (scope_set i n x' e).
Proof. apply scope_upd_ro_pres. intros m. apply mset_ro_pres. Qed.

Lemma scope_del_ro_pres i n e :
  (forall x, scope_get i n e = Some x -> v_ro x = false) -> ro_pres e (scope_del i n e).
Proof. apply scope_upd_ro_pres. intros m. apply mdel_ro_pres. Qed.

Lemma assign_readonly x l app : v_ro x = true -> assign x l app = (x, Some EReadonly).
Proof. intros R. unfold assign. rewrite R. reflexivity. Qed.

Lemma assign_ro_pres x l app : var_ro_pres x (fst (assign x l app)).
Proof. intros R. rewrite assign_readonly by exact R. cbn. auto. Qed.

Lemma assign_at_index_readonly x ix v app : v_ro x = true -> assign_at_index x ix v app = (x, Some EReadonly).
Proof. intros R. unfold assign_at_index. rewrite R. reflexivity. Qed.

Lemma assign_at_index_ro_pres x ix v app : var_ro_pres x (fst (assign_at_index x ix v app)).
Proof. intros R. rewrite assign_at_index_readonly by exact R. cbn. auto. Qed.

Lemma unset_index_readonly x ix : v_ro x = true -> unset_index x ix = Err EReadonly.
Proof. intros R. unfold unset_index. rewrite R. reflexivity. Qed.

Lemma var_ro_pres_refl x : var_ro_pres x x.
Proof. intros R; auto. Qed.

Lemma var_ro_pres_exp x x' b : var_ro_pres x x' -> var_ro_pres x (set_exp x' b).
Proof. intros H R. exact (H R). Qed.

Lemma var_ro_pres_nonro x x' : v_ro x = false -> var_ro_pres x x'.
Proof. intros H R. congruence. Qed.

Lemma opt_xf_ro o t x : v_ro (opt_xf o t x) = v_ro x.
Proof. destruct o as [[|]|]; try reflexivity. cbn. destruct (v_xf x), t; reflexivity. Qed.

Lemma opt_xf_val o t x : v_val (opt_xf o t x) = v_val x.
Proof. destruct o as [[|]|]; try reflexivity. cbn. destruct (v_xf x), t; reflexivity. Qed.

Lemma attrs_before_ro f x : v_ro (attrs_before f x) = v_ro x /\ v_val (attrs_before f x) = v_val x.
Proof.
  unfold attrs_before. destruct (f_x f), (f_i f); cbn [set_exp v_ro v_val];
    rewrite !opt_xf_ro, !opt_xf_val; split; reflexivity.
Qed.

Lemma declare_on_ro_pres f verb init app x :
  negb (f_a f) && negb (f_A f) = true -> var_ro_pres x (fst (declare_on f verb init app true x)).
Proof.
  intros Hf R. apply andb_true_iff in Hf. destruct Hf as [Ha HA]. apply negb_true_iff in Ha, HA.
  unfold declare_on. rewrite Ha, HA. cbn [andb mlift].
  destruct (attrs_before_ro f x) as [B1 B2].
  assert (R3 : v_ro (attrs_before f x) = true) by congruence.
  destruct init as [l|].
  - rewrite assign_readonly by exact R3. cbn. split; congruence.
  - cbn [mok]. unfold attrs_after.
    destruct verb; cbn; try (split; congruence);
      destruct (f_r f) as [[|]|]; cbn; try rewrite R3; cbn; split; congruence.
Qed.

Lemma in_function_find_local e : in_function e = true -> exists j, find_kind KLocal e = Some j.
Proof.
  unfold in_function. induction e as [|[k m] e IH]; cbn; [discriminate|].
  destruct k; cbn; eauto; intros H; destruct (IH H) as [j ->]; cbn; eauto.
Qed.

(** no prefix assignment is outside the class *)
Definition tassign_safe (t : tassign) : bool := true.

(** the class left outside: `declare -a/-A` (conversion of an unset readonly name) *)
Definition bcmd_ro_safe (b : bcmd) : bool :=
  match b with
  | BDeclare _ f _ => negb (f_a f) && negb (f_A f)
  | _ => true
  end.

Fixpoint ro_safe (a : action) : bool :=
  match a with
  | ACmd ts c =>
      forallb tassign_safe ts &&
      match c with
      | CBuiltin b => bcmd_ro_safe b
      | CFunc body => (fix all (l : list action) : bool :=
                         match l with [] => true | x :: r => ro_safe x && all r end) body
      | _ => true
      end
  | _ => true
  end.

Lemma ro_pres_rel : env_rel ro_pres var_ro_pres (fun _ => true).
Proof.
  exact {| R_refl := ro_pres_refl; R_trans := ro_pres_trans; R_frame := ro_pres_pop_r;
           R_set := fun i n x' e _ => scope_set_ro_pres i n x' e;
           R_del := fun i n e _ => scope_del_ro_pres i n e |}.
Qed.

Lemma var_ro_pres_rel : var_rel var_ro_pres (fun _ f => negb (f_a f) && negb (f_A f)).
Proof.
  exact {| Q_refl := var_ro_pres_refl; Q_exp := var_ro_pres_exp; Q_nonro := var_ro_pres_nonro;
           Q_assign := assign_ro_pres; Q_assign_at := assign_at_index_ro_pres;
           Q_declare := fun verb f init app x => declare_on_ro_pres f verb init app x |}.
Qed.

Lemma ro_safe_rel : safe_rel ro_safe (fun _ => true) (fun _ f => negb (f_a f) && negb (f_A f)).
Proof.
  split.
  - reflexivity.
  - intros ts verb f d H. cbn in H. apply andb_true_iff in H. apply H.
  - intros ts body H. cbn [ro_safe] in H. apply andb_true_iff in H. apply forallb_Forall, H.
Qed.

Theorem readonly_invariant_exec : forall a e, ro_safe a = true -> ro_pres e (env_of (exec a e)).
Proof. intros a e S. exact (proj1 (exec_writes ro_pres_rel var_ro_pres_rel ro_safe_rel a S e)). Qed.

Definition va : str := [118; 97]%N.
Definition no_fl : dflags := mkFlags false false None None None None None None false.

(** `readonly n; declare -a n` gives the unset name an element *)
Lemma readonly_invariant_refuted :
  exists a e, ~ ro_pres e (env_of (exec a e)).
Proof.
  exists (ACmd [] (CBuiltin (BDeclare DDeclare (mkFlags true false None None None None None None false) (DName va)))).
  exists (env_of (exec (ACmd [] (CBuiltin (BDeclare DReadonly no_fl (DName va)))) env_new)).
  intros H.
  (* only closed terms are evaluated: [content] under a binder would drag in the normal form
     of [show_Z] *)
  destruct (ro_pres_scope_get _ _ 0 va (mkVar (VUnset UUntyped) false true false XNone) H eq_refl eq_refl)
    as (x' & G & _ & C).
  vm_compute in G. injection G as <-. discriminate C.
Qed.

(** shadowing: the *visible* value of a readonly name changes under `local` and under a prefix
    assignment although the readonly variable itself is intact *)
Definition ro_scalar_env : env :=
  env_of (exec (ACmd [] (CBuiltin (BDeclare DReadonly no_fl (DScalar va [49%N])))) env_new).

Lemma readonly_local_shadow_refuted :
  exists body, match exec (ACmd [] (CFunc body)) ro_scalar_env with
               | (_, [OState _ e], _) =>
                   (exists x, get va ro_scalar_env = Some x /\ v_ro x = true) /\ get va e <> get va ro_scalar_env
               | _ => False
               end.
Proof.
  exists [ACmd [] (CBuiltin (BDeclare DLocal no_fl (DScalar va [53%N]))); ACmd [] (CBuiltin (BProbe []))].
  vm_compute. split; [eexists; split; reflexivity | discriminate].
Qed.

Lemma readonly_temp_shadow_refuted :
  match exec (ACmd [(va, None, LScalar [50%N], false)] (CBuiltin (BProbe []))) ro_scalar_env with
  | (_, [OState _ e], _) => get va e <> get va ro_scalar_env
  | _ => False
  end.
Proof. vm_compute. discriminate. Qed.
