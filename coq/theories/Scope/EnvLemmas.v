(** C09 — facts about maps, scope updates and lookups; then the proof principle of the property:
    the shape shared by all writers ([exec_writes]), with [exec_kinds] as its first instance. *)
From BV Require Import Base.Prelude Scope.Vars Scope.Env Scope.Prog.

Section ActionInd.
  Variable P : action -> Prop.
  Hypothesis Hassign : forall n ix l app, P (AAssign n ix l app).
  Hypothesis Hset : forall n l, P (ASet n l).
  Hypothesis Hsetelem : forall n ix v, P (ASetElem n ix v).
  Hypothesis Hdefault : forall n v, P (ADefault n v).
  Hypothesis Hreturn : P AReturn.
  Hypothesis Hcmd : forall ts c, match c with CFunc body => Forall P body | _ => True end -> P (ACmd ts c).

  Fixpoint action_ind' (a : action) : P a :=
    match a with
    | AAssign n ix l app => Hassign n ix l app
    | ASet n l => Hset n l
    | ASetElem n ix v => Hsetelem n ix v
    | ADefault n v => Hdefault n v
    | AReturn => Hreturn
    | ACmd ts c =>
        Hcmd ts c
          match c with
          | CFunc body => (fix go (l : list action) : Forall P l :=
                             match l with
                             | [] => Forall_nil _
                             | x :: r => Forall_cons _ (action_ind' x) (go r)
                             end) body
          | _ => I
          end
    end.
End ActionInd.

Lemma forallb_Forall {A} (f : A -> bool) l : forallb f l = true -> Forall (fun x => f x = true) l.
Proof.
  induction l as [|a l IH]; cbn; intros H; constructor; apply andb_true_iff in H; destruct H; auto.
Qed.

Lemma run_is_exec_list : forall l e,
  (fix run (l : list action) (e : env) : env * list obs * flow :=
     match l with
     | [] => (e, [], Normal)
     | a :: l' =>
         let '(e', o1, fl) := exec a e in
         match fl with
         | Normal => let '(e'', o2, fl2) := run l' e' in (e'', o1 ++ o2, fl2)
         | _ => (e', o1, fl)
         end
     end) l e = exec_list l e.
Proof.
  induction l as [|a l IH]; intros e; [reflexivity|].
  cbn [exec_list]. destruct (exec a e) as [[e' o1] fl]. destruct fl; reflexivity.
Qed.

Definition env_of (r : env * list obs * flow) : env := fst (fst r).

Lemma env_of_cmd ts c e :
  env_of (exec (ACmd ts c) e) =
  fst (pop_scope KCommand
         (let e2 := fst (apply_temps ts (push_scope KCommand e)) in
          match snd (apply_temps ts (push_scope KCommand e)), c with
          | None, CBuiltin b => fst (exec_builtin b e2)
          | None, CFunc body => fst (pop_scope KLocal (env_of (exec_list body (push_scope KLocal e2))))
          | _, _ => e2
          end)).
Proof.
  cbn [exec]. cbv zeta. destruct (apply_temps ts (push_scope KCommand e)) as [e2 [er|]]; cbn [fst snd].
  - destruct c; reflexivity.
  - destruct c as [b|body| |]; try reflexivity.
    + destruct (exec_builtin b e2). reflexivity.
    + rewrite run_is_exec_list. destruct (exec_list body (push_scope KLocal e2)) as [[e4 o] fl]. reflexivity.
Qed.

Lemma env_of_flow (r : env * option err) :
  env_of match r with (e', None) => (e', [], Normal) | (e', Some _) => (e', [], Abort) end = fst r.
Proof. destruct r as [e' [er|]]; reflexivity. Qed.

Lemma env_of_exec_list_cons a l e :
  env_of (exec_list (a :: l) e) =
  match snd (exec a e) with
  | Normal => env_of (exec_list l (env_of (exec a e)))
  | _ => env_of (exec a e)
  end.
Proof.
  cbn [exec_list]. destruct (exec a e) as [[e' o1] fl]. destruct fl; try reflexivity.
  change (env_of (e', o1, Normal)) with e'. cbn [snd].
  destruct (exec_list l e') as [[e'' o2] fl2]. reflexivity.
Qed.

Lemma str_eqb_spec a b : reflect (a = b) (str_eqb a b).
Proof. apply iff_reflect. symmetry. apply str_eqb_eq. Qed.

Lemma str_eqb_sym a b : str_eqb a b = str_eqb b a.
Proof.
  destruct (str_eqb_spec a b) as [->|H]; [symmetry; apply str_eqb_refl|].
  destruct (str_eqb_spec b a) as [->|_]; [contradiction | reflexivity].
Qed.

Lemma mget_mset_same n v m : mget n (mset n v m) = Some v.
Proof.
  induction m as [|[k x] m IH]; cbn; [rewrite str_eqb_refl; reflexivity|].
  destruct (str_eqb n k) eqn:E; cbn; rewrite E; [reflexivity | exact IH].
Qed.

Lemma mget_mset_other n n' v m : n' <> n -> mget n' (mset n v m) = mget n' m.
Proof.
  intros Hne. induction m as [|[k x] m IH]; cbn.
  - destruct (str_eqb_spec n' n); [contradiction | reflexivity].
  - destruct (str_eqb_spec n k) as [<-|_]; cbn.
    + destruct (str_eqb_spec n' n); [contradiction | reflexivity].
    + destruct (str_eqb n' k); [reflexivity | exact IH].
Qed.

Lemma mget_mdel_other n n' m : n' <> n -> mget n' (mdel n m) = mget n' m.
Proof.
  intros Hne. induction m as [|[k x] m IH]; cbn; [reflexivity|].
  destruct (str_eqb_spec n k) as [<-|_]; cbn.
  - destruct (str_eqb_spec n' n); [contradiction | reflexivity].
  - destruct (str_eqb n' k); [reflexivity | exact IH].
Qed.

Lemma nth_error_scope_upd i f e j :
  nth_error (scope_upd i f e) j =
  if Nat.eqb i j then option_map (fun s => (fst s, f (snd s))) (nth_error e j) else nth_error e j.
Proof.
  revert i j; induction e as [|[k m] e IH]; intros [|i] [|j]; cbn; try reflexivity.
  - destruct (Nat.eqb i j); reflexivity.
  - apply IH.
Qed.

Lemma scope_upd_kinds i f e : map fst (scope_upd i f e) = map fst e.
Proof.
  revert i; induction e as [|[k m] e IH]; intros [|i]; cbn; try reflexivity.
  rewrite IH. reflexivity.
Qed.

Lemma scope_upd_length i f e : length (scope_upd i f e) = length e.
Proof. pose proof (f_equal (@length kind) (scope_upd_kinds i f e)) as H. rewrite !map_length in H. exact H. Qed.

Lemma scope_kind_upd i j f e : scope_kind j (scope_upd i f e) = scope_kind j e.
Proof.
  unfold scope_kind. rewrite nth_error_scope_upd.
  destruct (Nat.eqb i j); [|reflexivity]. destruct (nth_error e j) as [[k m]|]; reflexivity.
Qed.

Lemma scope_get_upd i j f n e :
  i <> j \/ (forall m, mget n (f m) = mget n m) -> scope_get j n (scope_upd i f e) = scope_get j n e.
Proof.
  intros H. unfold scope_get. rewrite nth_error_scope_upd.
  destruct (Nat.eqb_spec i j) as [->|_]; [|reflexivity].
  destruct H as [H|H]; [contradiction|]. destruct (nth_error e j) as [[k m]|]; [apply H | reflexivity].
Qed.

Lemma scope_get_set_same i n v e : scope_get i n e <> None -> scope_get i n (scope_set i n v e) = Some v.
Proof.
  unfold scope_get, scope_set. rewrite nth_error_scope_upd, Nat.eqb_refl.
  destruct (nth_error e i) as [[k m]|]; [intros _; apply mget_mset_same | contradiction].
Qed.

Lemma find_pol_bound p lc n e i : find_pol p lc n e = Some i -> scope_get i n e <> None.
Proof.
  unfold scope_get.
  revert lc i; induction e as [|[k m] e IH]; intros lc i H; cbn in *; [discriminate|].
  destruct (admits p k _).
  - destruct (mget n m) eqn:G; [inversion H; cbn; rewrite G; discriminate|].
    destruct (stops_after p k); [discriminate|].
    destruct (find_pol p _ n e) eqn:F; cbn in H; [|discriminate]. inversion H. cbn. eapply IH. exact F.
  - destruct (find_pol p _ n e) eqn:F; cbn in H; [|discriminate]. inversion H. cbn. eapply IH. exact F.
Qed.

Lemma find_pol_lt p lc n e i : find_pol p lc n e = Some i -> (i < length e)%nat.
Proof.
  intros H. apply find_pol_bound in H. unfold scope_get in H. apply nth_error_Some.
  destruct (nth_error e i); [discriminate | contradiction].
Qed.

Lemma find_pol_get p lc n e i : find_pol p lc n e = Some i ->
  exists x k, scope_get i n e = Some x /\ scope_kind i e = Some k.
Proof.
  intros H. apply find_pol_bound in H. unfold scope_get, scope_kind in *.
  destruct (nth_error e i) as [[k m]|]; [|contradiction].
  destruct (mget n m) as [x|]; [eauto | contradiction].
Qed.

Lemma find_any_before n : forall e lc j,
  match find_pol PAnywhere lc n e with Some i => (j < i)%nat | None => True end -> scope_get j n e = None.
Proof.
  unfold scope_get. induction e as [|[k m] e IH]; intros lc j H; cbn in *.
  - destruct j; reflexivity.
  - destruct (mget n m) eqn:G; [lia|].
    destruct j; cbn; [exact G|]. apply (IH (if is_local k then S lc else lc)).
    destruct (find_pol PAnywhere _ n e); cbn in H; [lia | exact I].
Qed.

Definition kinds (e : env) : list kind := map fst e.

Lemma kinds_length e1 e2 : kinds e1 = kinds e2 -> length e1 = length e2.
Proof. unfold kinds. intros H. apply (f_equal (@length kind)) in H. rewrite !map_length in H. exact H. Qed.

Lemma find_any_ext n : forall e1 e2 lc1 lc2, length e1 = length e2 ->
  (forall j, scope_get j n e1 = scope_get j n e2) ->
  find_pol PAnywhere lc1 n e1 = find_pol PAnywhere lc2 n e2.
Proof.
  induction e1 as [|[k1 m1] e1 IH]; intros [|[k2 m2] e2] lc1 lc2 HL H; cbn in *; try discriminate; [reflexivity|].
  pose proof (H O) as H0. unfold scope_get in H0. cbn in H0. rewrite H0.
  destruct (mget n m2); [reflexivity|]. f_equal. apply IH; [lia|].
  intros j. apply (H (S j)).
Qed.

Lemma get_ext n e1 e2 : kinds e1 = kinds e2 ->
  (forall j, scope_get j n e1 = scope_get j n e2) -> get n e1 = get n e2.
Proof.
  intros HK H. unfold get, get_pol. rewrite (find_any_ext n e1 e2 0 0 (kinds_length _ _ HK) H).
  destruct (find_pol PAnywhere 0 n e2); [apply H | reflexivity].
Qed.

Lemma find_curlocal_eq n : forall e,
  find_pol POnlyCurLocal 0 n e =
  match find_kind KLocal e with
  | Some j => match scope_get j n e with Some _ => Some j | None => None end
  | None => None
  end.
Proof.
  induction e as [|[k m] e IH]; [reflexivity|].
  cbn [find_pol admits stops_after find_kind]. unfold is_local. destruct (kind_eqb k KLocal); cbn.
  - unfold scope_get. cbn. destruct (mget n m); reflexivity.
  - rewrite IH. destruct (find_kind KLocal e) as [j|]; cbn; [|reflexivity].
    change (scope_get (S j) n ((k, m) :: e)) with (scope_get j n e). destruct (scope_get j n e); reflexivity.
Qed.

Lemma find_kind_lt k e i : find_kind k e = Some i -> (i < length e)%nat.
Proof.
  revert i; induction e as [|[k' m] e IH]; intros i H; cbn in *; [discriminate|].
  destruct (kind_eqb k' k); [inversion H; lia|].
  destruct (find_kind k e) eqn:F; cbn in H; [|discriminate]. inversion H. specialize (IH _ eq_refl). lia.
Qed.

Lemma kind_eqb_refl k : kind_eqb k k = true.
Proof. destruct k; reflexivity. Qed.

Lemma find_kind_top k e : scope_kind 0 e = Some k -> find_kind k e = Some 0%nat.
Proof.
  destruct e as [|[k' m] e]; cbn; [discriminate|]. intros [= ->]. rewrite kind_eqb_refl. reflexivity.
Qed.

Lemma scope_kind_kinds i e : scope_kind i e = nth_error (kinds e) i.
Proof.
  unfold scope_kind. revert i; induction e as [|[k m] e IH]; intros [|i]; try reflexivity. apply IH.
Qed.

Lemma pop_after_kinds k ks e : kinds e = k :: ks -> kinds (fst (pop_scope k e)) = ks.
Proof. destruct e as [|[k' m] e]; cbn; intros H; [discriminate | inversion H; reflexivity]. Qed.

(** [do_declare] once [create_local] is decided *)
Definition declare_at (cl : bool) (verb : dverb) (f : dflags) (d : decl) (e : env) : env * option err :=
  let n := decl_name d in
  let '(init, has_index, name_is_array) := decl_parts d in
  match find_pol (if cl then POnlyCurLocal else PAnywhere) O n e with
  | Some i =>
      match scope_get i n e with
      | Some x =>
          let '(x', er) := declare_on f verb init has_index true x in
          (scope_set i n x' e, er)
      | None => (e, Some EOther)
      end
  | None =>
      let ut := if f_a f then UIdx else if f_A f then UAssoc
                else if name_is_array then UIdx else UUntyped in
      match declare_on f verb init false false (new_var (VUnset ut)) with
      | (x', None) => env_add n x' (if cl then KLocal else KGlobal) e
      | (_, Some er) => (e, Some er)
      end
  end.

Lemma do_declare_eq verb f d e :
  do_declare verb f d e = (e, Some ENotInFunction) \/
  do_declare verb f d e =
  declare_at match verb with
             | DLocal => true
             | DDeclare => in_function e && negb (f_g f)
             | DReadonly => false
             end verb f d e.
Proof. unfold do_declare. destruct verb, (in_function e); (left; reflexivity) || (right; reflexivity). Qed.

(** Where a writer of [n] may write: where lookup finds [n]; anywhere if lookup finds nothing (a
    creation, invisible to whoever watches a binding of [n]); the innermost Local scope (`local`,
    `declare` in a function); the top scope (prefix assignment). *)
Definition wloc (n : str) (i : nat) (e : env) : Prop :=
  find_pol PAnywhere 0 n e = Some i \/ find_pol PAnywhere 0 n e = None \/
  find_kind KLocal e = Some i \/ i = 0%nat.

Lemma found_wloc (cl : bool) n i e :
  find_pol (if cl then POnlyCurLocal else PAnywhere) 0 n e = Some i -> wloc n i e.
Proof.
  destruct cl; intros F; [|left; exact F]. right; right; left.
  rewrite find_curlocal_eq in F. destruct (find_kind KLocal e) as [j|]; [|discriminate].
  destruct (scope_get j n e); [exact F | discriminate].
Qed.

(** a new binding in the first scope of kind [k] lands where [wloc] allows and overwrites nothing *)
Definition fresh_in (n : str) (k : kind) (e : env) : Prop :=
  forall j, find_kind k e = Some j -> wloc n j e /\ scope_get j n e = None.

Lemma fresh_any n k e : find_pol PAnywhere 0 n e = None -> fresh_in n k e.
Proof.
  intros F j _. split; [right; left; exact F|]. apply (find_any_before n e 0). rewrite F. exact I.
Qed.

Lemma fresh_curlocal n e : find_pol POnlyCurLocal 0 n e = None -> fresh_in n KLocal e.
Proof.
  intros F j K. split; [right; right; left; exact K|].
  rewrite find_curlocal_eq, K in F. destruct (scope_get j n e); [discriminate | reflexivity].
Qed.

(** Every writer looks the name up, overwrites the variable where found or creates it in the
    first scope of some kind, and touches nothing else; commands and calls run inside a pushed
    scope that is popped again. So [R] relates the environments before and after any action once
    it is a preorder, survives such a frame, and holds for one write of [x'] over [x] with
    [Q x x'], [Q] being what the variable-level mutators guarantee. The tombstone of `unset` and
    the removal of an element come with no such guarantee but happen only to non-readonly
    variables: hence [Q_nonro] and the second premise of [R_del]. [safe] actions stay within
    what [may_unset] and [may_declare] allow. *)
Set Implicit Arguments.

Record env_rel (R : env -> env -> Prop) (Q : var -> var -> Prop) (may_unset : str -> bool) : Prop := {
  R_refl : forall e, R e e;
  R_trans : forall e1 e2 e3, R e1 e2 -> R e2 e3 -> R e1 e3;
  R_frame : forall k e e1, R (push_scope k e) e1 -> R e (fst (pop_scope k e1));
  R_set : forall i n x' e,
    wloc n i e -> (forall x, scope_get i n e = Some x -> Q x x') -> R e (scope_set i n x' e);
  R_del : forall i n e,
    may_unset n = true -> (forall x, scope_get i n e = Some x -> v_ro x = false) ->
    R e (scope_del i n e)
}.

Record var_rel (Q : var -> var -> Prop) (may_declare : dverb -> dflags -> bool) : Prop := {
  Q_refl : forall x, Q x x;
  Q_exp : forall x x' b, Q x x' -> Q x (set_exp x' b);
  Q_nonro : forall x x', v_ro x = false -> Q x x';
  Q_assign : forall x l app, Q x (fst (assign x l app));
  Q_assign_at : forall x ix v app, Q x (fst (assign_at_index x ix v app));
  Q_declare : forall verb f init app x,
    may_declare verb f = true -> Q x (fst (declare_on f verb init app true x))
}.

Record safe_rel (safe : action -> bool) (may_unset : str -> bool) (may_declare : dverb -> dflags -> bool)
  : Prop := {
  safe_unset : forall ts n, safe (ACmd ts (CBuiltin (BUnset n))) = true -> may_unset n = true;
  safe_declare : forall ts verb f d,
    safe (ACmd ts (CBuiltin (BDeclare verb f d))) = true -> may_declare verb f = true;
  safe_body : forall ts body,
    safe (ACmd ts (CFunc body)) = true -> Forall (fun a => safe a = true) body
}.

Unset Implicit Arguments.

Lemma var_rel_any may_declare : var_rel (fun _ _ => True) may_declare.
Proof. split; intros; exact I. Qed.

Lemma safe_rel_all : safe_rel (fun _ => true) (fun _ => true) (fun _ _ => true).
Proof. split; intros; try reflexivity. apply Forall_forall. reflexivity. Qed.

Section Writers.
  Variable R : env -> env -> Prop.
  Variable Q : var -> var -> Prop.
  Variable may_unset : str -> bool.
  Variable may_declare : dverb -> dflags -> bool.
  Variable safe : action -> bool.
  Hypothesis HR : env_rel R Q may_unset.
  Hypothesis HV : var_rel Q may_declare.
  Hypothesis Hsafe : safe_rel safe may_unset may_declare.

  (** kinds are carried along: prefix assignments need the top scope to stay the Command scope *)
  Definition writes (e e' : env) : Prop := R e e' /\ kinds e' = kinds e.

  Lemma writes_refl e : writes e e.
  Proof. split; [apply (R_refl HR) | reflexivity]. Qed.

  Lemma writes_trans e1 e2 e3 : writes e1 e2 -> writes e2 e3 -> writes e1 e3.
  Proof. intros [A K1] [B K2]. split; [eapply (R_trans HR); eassumption | congruence]. Qed.

  Lemma writes_frame k e e1 : writes (push_scope k e) e1 -> writes e (fst (pop_scope k e1)).
  Proof. intros [A K]. split; [apply (R_frame HR), A | apply pop_after_kinds, K]. Qed.

  Lemma writes_set i n x x' e :
    wloc n i e -> scope_get i n e = Some x -> Q x x' -> writes e (scope_set i n x' e).
  Proof.
    intros L G HQ. split; [|apply scope_upd_kinds]. apply (R_set HR); [exact L|].
    intros x0 G0. rewrite G in G0. injection G0 as <-. exact HQ.
  Qed.

  Lemma writes_add n x' k e : fresh_in n k e -> writes e (fst (env_add n x' k e)).
  Proof.
    intros H. unfold env_add. destruct (find_kind k e) as [j|] eqn:K; cbn [fst]; [|apply writes_refl].
    destruct (H j K) as [L G]. split; [|apply scope_upd_kinds]. apply (R_set HR); [exact L|].
    intros x G0. rewrite G in G0. discriminate.
  Qed.

  (** the variable found is overwritten with what a mutator left behind, after [g] if it succeeded *)
  Lemma writes_assigned {n i x e} (r : mres) (g : var -> var) :
    find_pol PAnywhere 0 n e = Some i -> scope_get i n e = Some x ->
    Q x (fst r) -> (forall x', Q x x' -> Q x (g x')) ->
    writes e (fst match r with
                  | (x', None) => (scope_set i n (g x') e, None)
                  | (x', Some er) => (scope_set i n x' e, Some er)
                  end).
  Proof.
    intros F G HA Hg. destruct r as [x' [er|]]; cbn [fst] in *;
      (eapply writes_set; [left; exact F | exact G |]); [exact HA | apply Hg, HA].
  Qed.

  Lemma writes_update_or_add n l u k e : writes e (fst (update_or_add n l u PAnywhere k e)).
  Proof.
    unfold update_or_add. destruct (find_pol PAnywhere 0 n e) as [i|] eqn:F.
    - destruct (scope_get i n e) as [x|] eqn:G; [|apply writes_refl].
      apply (writes_assigned _ (run_updater u) F G (Q_assign HV x l false)).
      intros x' HA. destruct u; [exact HA | apply (Q_exp HV), HA | apply (Q_exp HV), HA].
    - destruct (assign tombstone l false) as [x' [er|]]; cbn [fst]; [apply writes_refl|].
      apply writes_add, fresh_any, F.
  Qed.

  Lemma writes_update_or_add_elem n ix v k e : writes e (fst (update_or_add_elem n ix v PAnywhere k e)).
  Proof.
    unfold update_or_add_elem. destruct (find_pol PAnywhere 0 n e) as [i|] eqn:F.
    - destruct (scope_get i n e) as [x|] eqn:G; [|apply writes_refl].
      pose proof ((Q_assign_at HV) x ix v false) as HA.
      destruct (assign_at_index x ix v false) as [x' er]; cbn [fst] in *.
      eapply writes_set; [left; exact F | exact G | exact HA].
    - destruct (assign tombstone _ false) as [x' [er|]]; cbn [fst]; [apply writes_refl|].
      apply writes_add, fresh_any, F.
  Qed.

  Lemma writes_env_unset n e : may_unset n = true -> writes e (fst (env_unset n e)).
  Proof.
    intros Hok. unfold env_unset. destruct (find_pol PAnywhere 0 n e) as [i|] eqn:F; [|apply writes_refl].
    destruct (scope_get i n e) as [x|] eqn:G; [|apply writes_refl].
    destruct (v_ro x) eqn:Rx; [apply writes_refl|].
    destruct (is_cur_local i e); cbn [fst].
    - eapply writes_set; [left; exact F | exact G | apply (Q_nonro HV), Rx].
    - split; [|apply scope_upd_kinds]. apply (R_del HR); [exact Hok|].
      intros x0 G0. rewrite G in G0. injection G0 as <-. exact Rx.
  Qed.

  Lemma writes_env_unset_index n ix e : writes e (fst (env_unset_index n ix e)).
  Proof.
    unfold env_unset_index. destruct (find_pol PAnywhere 0 n e) as [i|] eqn:F; [|apply writes_refl].
    destruct (scope_get i n e) as [x|] eqn:G; [|apply writes_refl].
    destruct (unset_index x ix) as [[x' b]|er] eqn:U; cbn [fst]; [|apply writes_refl].
    eapply writes_set; [left; exact F | exact G | apply (Q_nonro HV)].
    unfold unset_index in U. destruct (v_ro x); [discriminate | reflexivity].
  Qed.

  Lemma writes_do_export n v u e : writes e (fst (do_export n v u e)).
  Proof.
    unfold do_export. destruct v as [[l [|]]|]; [|apply writes_update_or_add|].
    - destruct (find_pol PAnywhere 0 n e) as [i|] eqn:F; [|apply writes_update_or_add].
      destruct (scope_get i n e) as [x|] eqn:G; [|apply writes_refl].
      apply (writes_assigned _ (fun x' => set_exp x' (negb u)) F G (Q_assign HV x l true)).
      intros x' HA. apply (Q_exp HV), HA.
    - destruct (find_pol PAnywhere 0 n e) as [i|] eqn:F; [|apply writes_refl].
      destruct (scope_get i n e) as [x|] eqn:G; [|apply writes_refl]. cbn [fst].
      eapply writes_set; [left; exact F | exact G | apply (Q_exp HV), (Q_refl HV)].
  Qed.

  Lemma writes_declare_at cl verb f d e :
    may_declare verb f = true -> writes e (fst (declare_at cl verb f d e)).
  Proof.
    intros Hok. unfold declare_at. destruct (decl_parts d) as [[init hi] nia].
    destruct (find_pol _ 0 (decl_name d) e) as [i|] eqn:F.
    - destruct (scope_get i (decl_name d) e) as [x|] eqn:G; [|apply writes_refl].
      pose proof ((Q_declare HV) verb f init hi x Hok) as HD.
      destruct (declare_on f verb init hi true x) as [x' er]. cbn [fst] in *.
      eapply writes_set; [eapply found_wloc, F | exact G | exact HD].
    - destruct (declare_on _ _ _ _ _ _) as [x' [er|]]; cbn [fst]; [apply writes_refl|].
      apply writes_add. destruct cl; [apply fresh_curlocal | apply fresh_any]; exact F.
  Qed.

  (** for prefix assignments ([rq = Some KCommand]) the caller has just pushed the Command scope *)
  Lemma writes_apply_assignment n ix l app ex rq cr e :
    rq = None \/ rq = Some cr /\ scope_kind 0 e = Some cr ->
    writes e (fst (apply_assignment n ix l app ex rq cr e)).
  Proof.
    intros Hrq. unfold apply_assignment.
    set (create := match _ with Ok v => env_add n _ cr e | Err er => (e, Some er) end).
    assert (Hc : fresh_in n cr e -> writes e (fst create)).
    { intros Hf. subst create.
      destruct (match ix with Some _ => _ | None => _ end); [apply writes_add, Hf | apply writes_refl]. }
    destruct (find_pol PAnywhere 0 n e) as [i|] eqn:F; [|apply Hc, fresh_any, F].
    destruct (find_pol_get _ _ _ _ _ F) as (x & k & G & K). rewrite G, K.
    assert (Hm : forall x', Q x x' -> Q x (if ex then set_exp x' true else x')).
    { intros x' HQ. destruct ex; [apply (Q_exp HV), HQ | exact HQ]. }
    destruct (match rq with Some rk => kind_eqb k rk | None => true end) eqn:Qk.
    - destruct ix as [ixs|].
      + destruct l as [s|items]; [|apply writes_refl].
        apply (writes_assigned _ (fun x' => if ex then set_exp x' true else x') F G
                 (Q_assign_at HV x ixs s app) Hm).
      + apply (writes_assigned _ (fun x' => if ex then set_exp x' true else x') F G
                 (Q_assign HV x l app) Hm).
    - (* found in a scope of another kind than required: the new binding goes on top *)
      destruct Hrq as [->|[-> K0]]; [discriminate|]. apply Hc. intros j Hj.
      rewrite (find_kind_top _ _ K0) in Hj. injection Hj as <-.
      split; [right; right; right; reflexivity|].
      apply (find_any_before n e 0). rewrite F. destruct i; [|lia].
      rewrite K0 in K. injection K as <-. rewrite kind_eqb_refl in Qk. discriminate.
  Qed.

  Lemma writes_apply_temps ts : forall e,
    scope_kind 0 e = Some KCommand -> writes e (fst (apply_temps ts e)).
  Proof.
    induction ts as [|[[[n ix] l] app] ts IH]; intros e K; [apply writes_refl|]. cbn [apply_temps].
    pose proof (writes_apply_assignment n ix l app true (Some KCommand) KCommand e (or_intror (conj eq_refl K))) as H.
    destruct (apply_assignment _ _ _ _ _ _ _ e) as [e' [er|]]; cbn [fst] in *; [exact H|].
    eapply writes_trans; [exact H|]. apply IH. rewrite scope_kind_kinds in *. rewrite (proj2 H). exact K.
  Qed.

  Lemma writes_exec_builtin ts b e :
    safe (ACmd ts (CBuiltin b)) = true -> writes e (fst (exec_builtin b e)).
  Proof.
    intros S. destruct b; cbn [exec_builtin fst].
    - destruct (do_declare_eq verb f d e) as [->| ->]; [apply writes_refl|].
      eapply writes_declare_at, (safe_declare Hsafe), S.
    - apply writes_do_export.
    - eapply writes_env_unset, (safe_unset Hsafe), S.
    - apply writes_env_unset_index.
    - apply writes_update_or_add.
    - apply writes_refl.
    - apply writes_refl.
  Qed.

  Lemma writes_exec_list l :
    Forall (fun a => safe a = true -> forall e, writes e (env_of (exec a e))) l ->
    Forall (fun a => safe a = true) l -> forall e, writes e (env_of (exec_list l e)).
  Proof.
    induction 1 as [|a l Ha _ IH]; intros HS e; [apply writes_refl|].
    inversion HS as [|? ? Sa Sr]; subst. rewrite env_of_exec_list_cons.
    destruct (snd (exec a e)); try apply Ha, Sa.
    eapply writes_trans; [apply Ha, Sa | apply IH, Sr].
  Qed.

  Theorem exec_writes : forall a, safe a = true -> forall e, writes e (env_of (exec a e)).
  Proof.
    induction a as [n ix l app|n l|n ix v|n v| |ts c IH] using action_ind'; intros S e.
    - cbn [exec]. rewrite env_of_flow. apply writes_apply_assignment. left. reflexivity.
    - cbn [exec]. rewrite env_of_flow. apply writes_update_or_add.
    - cbn [exec]. rewrite env_of_flow. apply writes_update_or_add_elem.
    - cbn [exec]. destruct (match get n e with Some _ => _ | None => true end); [|apply writes_refl].
      rewrite env_of_flow. apply writes_update_or_add.
    - apply writes_refl.
    - rewrite env_of_cmd. apply writes_frame. cbv zeta.
      pose proof (writes_apply_temps ts (push_scope KCommand e) eq_refl) as HT.
      destruct (snd (apply_temps ts (push_scope KCommand e))); [exact HT|].
      eapply writes_trans; [exact HT|]. destruct c as [b|body| |]; try apply writes_refl.
      + eapply writes_exec_builtin, S.
      + apply writes_frame, writes_exec_list; [exact IH | eapply (safe_body Hsafe), S].
  Qed.
End Writers.
Arguments exec_writes {R Q may_unset may_declare safe}.
Arguments writes_exec_list {R Q may_unset safe}.

(** The Command scope is popped on every dispatch path (also not found, failed prefix
    assignment), the Local scope on normal completion, `return` and error alike. *)
Lemma exec_kinds : forall a e, kinds (env_of (exec a e)) = kinds e.
Proof.
  intros a e.
  assert (HR : env_rel (fun _ _ => True) (fun _ _ => True) (fun _ => true)) by (split; intros; exact I).
  exact (proj2 (exec_writes HR (var_rel_any _) safe_rel_all a eq_refl e)).
Qed.
