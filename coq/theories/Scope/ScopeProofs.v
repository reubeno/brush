(** C09 — dynamic scoping: a binding with a Local scope at or above it shields everything below
    it from every writer of the grammar except `unset`; corollaries [local_restores],
    [temp_func_restores], [temp_assign_undone], [unset_local_tombstone], [callee_sees_local]. *)
From BV Require Import Base.Prelude Scope.Vars Scope.Env Scope.Prog Scope.EnvLemmas.

Definition has_local_upto (d : nat) (e : env) : bool := existsb is_local (firstn (S d) (kinds e)).

(** [n] is bound in scope [d] (0 = top) and a Local scope exists at or above [d] *)
Definition shielded (n : str) (d : nat) (e : env) : Prop :=
  scope_get d n e <> None /\ has_local_upto d e = true.

Definition below_eq (n : str) (d : nat) (e e' : env) : Prop :=
  forall j, (d < j)%nat -> scope_get j n e' = scope_get j n e.

Definition shield_step (n : str) (d : nat) (e e' : env) : Prop :=
  shielded n d e -> kinds e' = kinds e /\ shielded n d e' /\ below_eq n d e e'.

(** preorder facts for every depth [d] at once: the depth of the shielding scope changes with
    every push and pop, so the interpreter needs [shield_step] at all depths *)
Lemma shield_refl n e d : shield_step n d e e.
Proof. intros S. repeat split; try apply S. Qed.

Lemma shield_trans n e1 e2 e3 :
  (forall d, shield_step n d e1 e2) -> (forall d, shield_step n d e2 e3) -> forall d, shield_step n d e1 e3.
Proof.
  intros A B d S. destruct (A d S) as (K1 & S1 & B1). destruct (B d S1) as (K2 & S2 & B2).
  repeat split; try apply S2; [congruence|]. intros j Hj. rewrite B2, B1 by exact Hj. reflexivity.
Qed.

Lemma shield_set n d m i x e : (m <> n \/ (i <= d)%nat) -> shield_step n d e (scope_set i m x e).
Proof.
  intros H [B L]. split; [apply scope_upd_kinds|]. split; [split|].
  - destruct (Nat.eq_dec i d) as [->|Hd].
    2: { unfold scope_set. rewrite scope_get_upd by (left; exact Hd). exact B. }
    destruct (str_eqb_spec m n) as [->|Hne].
    + rewrite scope_get_set_same by exact B. discriminate.
    + unfold scope_set. rewrite scope_get_upd by (right; intros; apply mget_mset_other; congruence). exact B.
  - unfold has_local_upto, scope_set. rewrite (scope_upd_kinds i _ e : kinds _ = kinds e). exact L.
  - intros j Hj. unfold scope_set. apply scope_get_upd.
    destruct H as [H|H]; [right; intros; apply mget_mset_other; congruence | left; lia].
Qed.

Lemma shield_del n d m i e : m <> n -> shield_step n d e (scope_del i m e).
Proof.
  intros H [B L].
  assert (U : forall j, scope_get j n (scope_del i m e) = scope_get j n e).
  { intros j. unfold scope_del. apply scope_get_upd. right. intros. apply mget_mdel_other. congruence. }
  split; [apply scope_upd_kinds|]. split; [split|].
  - rewrite U. exact B.
  - unfold has_local_upto, scope_del. rewrite (scope_upd_kinds i _ e : kinds _ = kinds e). exact L.
  - intros j _. apply U.
Qed.

Lemma first_local_le : forall e d j,
  has_local_upto d e = true -> find_kind KLocal e = Some j -> (j <= d)%nat.
Proof.
  unfold has_local_upto, kinds. induction e as [|[k m] e IH]; intros d j H K; [discriminate|].
  cbn in H, K. unfold is_local in H. destruct (kind_eqb k KLocal).
  - injection K as <-. lia.
  - destruct (find_kind KLocal e) as [j'|]; [|discriminate]. injection K as <-.
    destruct d as [|d]; [discriminate|]. apply le_n_S, IH; [exact H | reflexivity].
Qed.

Lemma wloc_le n d m i e : shielded n d e -> wloc m i e -> m <> n \/ (i <= d)%nat.
Proof.
  intros [B L] W. destruct (str_eqb_spec m n) as [->|Hne]; [right | left; exact Hne].
  destruct W as [F|[F|[K| ->]]].
  - destruct (le_lt_dec i d) as [Hle|Hgt]; [exact Hle|].
    exfalso. apply B. apply (find_any_before n e 0). rewrite F. exact Hgt.
  - exfalso. apply B. apply (find_any_before n e 0). rewrite F. exact I.
  - eapply first_local_le; eassumption.
  - lia.
Qed.

(** no `unset n` anywhere inside the action *)
Fixpoint nu (n : str) (a : action) : bool :=
  match a with
  | ACmd _ c =>
      match c with
      | CBuiltin (BUnset m) => negb (str_eqb m n)
      | CFunc body => (fix all (l : list action) : bool :=
                         match l with [] => true | x :: r => nu n x && all r end) body
      | _ => true
      end
  | _ => true
  end.

Lemma shielded_push n d k e : shielded n d e -> shielded n (S d) (push_scope k e).
Proof.
  intros [B L]. split; [exact B|]. unfold has_local_upto in *.
  change (kinds (push_scope k e)) with (k :: kinds e).
  change (firstn (S (S d)) (k :: kinds e)) with (k :: firstn (S d) (kinds e)).
  cbn [existsb]. rewrite L. apply orb_true_r.
Qed.

Lemma shield_frame n k e e1 :
  (forall d, shield_step n d (push_scope k e) e1) -> forall d, shield_step n d e (fst (pop_scope k e1)).
Proof.
  intros H d Sh. destruct (H (S d) (shielded_push _ _ k _ Sh)) as (K & [B1 L1] & B).
  destruct e1 as [|[k1 m1] e1]; [discriminate|]. cbn in K. inversion K as [[Hk K']]. cbn [pop_scope fst].
  split; [exact K'|]. split; [split|].
  - exact B1.
  - destruct Sh as [_ L]. unfold has_local_upto in *. unfold kinds in *. rewrite K'. exact L.
  - intros j Hj. specialize (B (S j) ltac:(lia)). exact B.
Qed.

Lemma shield_rel n :
  env_rel (fun e e' => forall d, shield_step n d e e') (fun _ _ => True) (fun m => negb (str_eqb m n)).
Proof.
  refine {| R_refl := shield_refl n; R_trans := shield_trans n; R_frame := shield_frame n;
            R_set := _; R_del := _ |}.
  - intros i m x' e W _ d S. apply shield_set; [eapply wloc_le; eassumption | exact S].
  - intros i m e Hm _ d. apply shield_del. intros ->. rewrite str_eqb_refl in Hm. discriminate.
Qed.

Lemma nu_safe_rel n : safe_rel (nu n) (fun m => negb (str_eqb m n)) (fun _ _ => true).
Proof.
  split.
  - intros ts m H. exact H.
  - reflexivity.
  - intros ts body H. apply forallb_Forall, H.
Qed.

Lemma exec_shield_writes n a : nu n a = true ->
  forall e, writes (fun e e' => forall d, shield_step n d e e') e (env_of (exec a e)).
Proof. exact (exec_writes (shield_rel n) (var_rel_any _) (nu_safe_rel n) a). Qed.

(** The shield: if [n] is bound in scope [d] and a Local scope exists at or above it, no action
    without `unset n` touches any binding of [n] below scope [d], and [n] stays bound there. *)
Theorem exec_shield n : forall a, nu n a = true -> forall e d, shield_step n d e (env_of (exec a e)).
Proof. intros a U e. apply (exec_shield_writes n a U e). Qed.

Lemma exec_list_shield n : forall l e d, Forall (fun a => nu n a = true) l ->
  shield_step n d e (env_of (exec_list l e)).
Proof.
  intros l e d HS. refine (proj1 (writes_exec_list (shield_rel n) l _ HS e) d).
  apply Forall_forall. intros a _. apply exec_shield_writes.
Qed.

(** Whatever the body does (nested calls, prefix assignments, exports, `return`, errors …) short
    of `unset n`, once [n] is bound in the function's Local scope every binding of [n] below is
    untouched, so after the return the caller sees what it saw before. *)
Theorem local_restores : forall n body m rest,
  mget n m <> None -> Forall (fun a => nu n a = true) body ->
  let e' := fst (pop_scope KLocal (env_of (exec_list body ((KLocal, m) :: rest)))) in
  kinds e' = kinds rest /\ (forall j, scope_get j n e' = scope_get j n rest) /\ get n e' = get n rest.
Proof.
  intros n body m rest Hb HS.
  assert (S0 : shielded n 0 ((KLocal, m) :: rest)) by (split; [exact Hb | reflexivity]).
  destruct (exec_list_shield n body ((KLocal, m) :: rest) 0 HS S0) as (K & _ & B).
  destruct (env_of (exec_list body ((KLocal, m) :: rest))) as [|[k1 m1] e1]; [discriminate|].
  cbn in K. inversion K as [[Hk K']]. cbn [pop_scope fst].
  assert (HJ : forall j, scope_get j n e1 = scope_get j n rest) by (intros j; apply (B (S j)); lia).
  split; [exact K'|]. split; [exact HJ|]. apply get_ext; assumption.
Qed.

(** `local n[=v]` (run as a command inside a function) does bind [n] in the function's scope *)
Lemma local_binds : forall f d m rest e' ,
  do_declare DLocal f d ((KCommand, []) :: (KLocal, m) :: rest) = (e', None) ->
  exists m', e' = (KCommand, []) :: (KLocal, m') :: rest /\ mget (decl_name d) m' <> None.
Proof.
  intros f d m rest e'. unfold do_declare. cbn [in_function existsb fst is_local kind_eqb orb].
  cbv zeta. destruct (decl_parts d) as [[init hi] nia].
  cbn [find_pol is_local kind_eqb admits andb Nat.eqb mget stops_after option_map].
  destruct (mget (decl_name d) m) as [x|] eqn:G; cbn [option_map].
  - unfold scope_get. cbn [nth_error]. rewrite G.
    destruct (declare_on f DLocal init hi true x) as [x' er]. intros H. inversion H; subst.
    eexists. split; [reflexivity|]. rewrite mget_mset_same. discriminate.
  - destruct (declare_on _ _ _ _ _ _) as [x' [er|]]; [discriminate|].
    unfold env_add. cbn. intros H. inversion H; subst.
    eexists. split; [reflexivity|]. rewrite mget_mset_same. discriminate.
Qed.

Theorem callee_sees_local : forall n frames m rest x,
  mget n m = Some x -> Forall (fun s => snd s = []) frames ->
  get n (frames ++ (KLocal, m) :: rest) = Some x.
Proof.
  intros n frames m rest x G HF. unfold get, get_pol.
  assert (H : forall lc, find_pol PAnywhere lc n (frames ++ (KLocal, m) :: rest) = Some (length frames)).
  { induction HF as [|[k mp] fr Hs _ IH]; intros lc; cbn.
    - rewrite G. reflexivity.
    - cbn in Hs. subst mp. cbn. rewrite IH. reflexivity. }
  rewrite H. unfold scope_get. rewrite nth_error_app2 by lia. rewrite Nat.sub_diag. cbn. exact G.
Qed.

(** `unset n` on a local of the current function leaves a tombstone in the function's scope: the
    name reads as unset (next corollary) and the shadowed binding is not revealed *)
Theorem unset_local_tombstone : forall n m rest x,
  mget n m = Some x -> v_ro x = false ->
  env_of (exec (ACmd [] (CBuiltin (BUnset n))) ((KLocal, m) :: rest)) = (KLocal, mset n tombstone m) :: rest.
Proof.
  intros n m rest x G R. unfold env_of. cbn [exec apply_temps push_scope exec_builtin fst].
  unfold env_unset, push_scope. cbn [find_pol is_local kind_eqb admits stops_after].
  change (mget n []) with (@None var). cbn [option_map]. rewrite G. cbn [option_map].
  unfold scope_get. cbn [nth_error]. rewrite G, R.
  unfold is_cur_local, scope_kind. cbn. reflexivity.
Qed.

Corollary unset_local_reads_unset : forall n m rest x,
  mget n m = Some x -> v_ro x = false ->
  get n (env_of (exec (ACmd [] (CBuiltin (BUnset n))) ((KLocal, m) :: rest))) = Some tombstone.
Proof.
  intros n m rest x G R. rewrite (unset_local_tombstone n m rest x G R).
  unfold get, get_pol. cbn. rewrite mget_mset_same. unfold scope_get. cbn. apply mget_mset_same.
Qed.

Definition temp_name (t : tassign) : str := match t with (m, _, _, _) => m end.

(** the prefix name is not currently provided by an enclosing prefix assignment *)
Definition not_nested (e : env) (t : tassign) : Prop :=
  match find_pol PAnywhere 0 (temp_name t) e with
  | Some i => scope_kind i e <> Some KCommand
  | None => True
  end.

Lemma mset_bound n m x mp : mget n mp <> None \/ n = m -> mget n (mset m x mp) <> None.
Proof.
  intros H. destruct (str_eqb_spec n m) as [->|Hne]; [rewrite mget_mset_same; discriminate|].
  rewrite mget_mset_other by exact Hne. destruct H as [H|H]; [exact H | contradiction].
Qed.

Lemma prefix_assignment_top m ix l app mp e :
  not_nested e (m, ix, l, app) ->
  let r := apply_assignment m ix l app true (Some KCommand) KCommand ((KCommand, mp) :: e) in
  (fst r = (KCommand, mp) :: e /\ snd r <> None) \/ exists x', fst r = (KCommand, mset m x' mp) :: e.
Proof.
  intros Hn. unfold apply_assignment.
  set (create := match _ with Ok v => env_add m _ KCommand _ | Err er => (_, Some er) end).
  assert (HC : (fst create = (KCommand, mp) :: e /\ snd create <> None) \/
               exists x', fst create = (KCommand, mset m x' mp) :: e).
  { subst create. destruct (match ix with Some _ => _ | None => _ end) as [v|er].
    - right. eexists. reflexivity.
    - left. split; [reflexivity | discriminate]. }
  cbn [find_pol is_local kind_eqb admits stops_after].
  destruct (mget m mp) as [x|] eqn:G.
  - unfold scope_get, scope_kind. cbn [nth_error]. rewrite G. cbn [kind_eqb].
    destruct ix as [ixs|]; [destruct l as [s|items]|].
    + destruct (assign_at_index x ixs s app) as [x' [er|]]; right; eexists; reflexivity.
    + left. split; [reflexivity | discriminate].
    + destruct (assign x l app) as [x' [er|]]; right; eexists; reflexivity.
  - unfold not_nested in Hn. cbn [temp_name] in Hn.
    destruct (find_pol PAnywhere 0 m e) as [i|]; cbn [option_map]; [|exact HC].
    change (scope_get (S i) m ((KCommand, mp) :: e)) with (scope_get i m e).
    change (scope_kind (S i) ((KCommand, mp) :: e)) with (scope_kind i e).
    destruct (scope_get i m e) as [x|]; [|exact HC].
    destruct (scope_kind i e) as [[| |]|]; cbn [kind_eqb]; try exact HC. congruence.
Qed.

Lemma apply_temps_top_only ts : forall mp e, Forall (not_nested e) ts ->
  exists mp', fst (apply_temps ts ((KCommand, mp) :: e)) = (KCommand, mp') :: e /\
    (snd (apply_temps ts ((KCommand, mp) :: e)) = None ->
     forall t, In t ts -> mget (temp_name t) mp' <> None) /\
    (forall n, mget n mp <> None -> mget n mp' <> None).
Proof.
  induction ts as [|[[[m ix] l] app] ts IH]; intros mp e HF.
  - exists mp. cbn. split; [reflexivity|]. split; [intros _ t [] | auto].
  - inversion HF as [|? ? Hn Hr]; subst. cbn [apply_temps].
    destruct (prefix_assignment_top m ix l app mp e Hn) as [[E1 E2]|[x' E1]];
      destruct (apply_assignment m ix l app true (Some KCommand) KCommand ((KCommand, mp) :: e)) as [e1 [er|]];
      cbn [fst snd] in *; subst e1.
    + exists mp. split; [reflexivity|]. split; [discriminate | auto].
    + contradiction.
    + exists (mset m x' mp). split; [reflexivity|]. split; [discriminate|].
      intros n Hn'. apply mset_bound. left. exact Hn'.
    + destruct (IH (mset m x' mp) e Hr) as (mp2 & EQ2 & Hb2 & Hk2). exists mp2. split; [exact EQ2|]. split.
      * intros Hs t [<-|Hin]; [apply Hk2, mset_bound; right; reflexivity | apply Hb2; assumption].
      * intros n Hn'. apply Hk2, mset_bound. left. exact Hn'.
Qed.

Definition noop_cmd (c : cmd) : bool :=
  match c with
  | CExternal | CNotFound | CBuiltin BNop | CBuiltin (BProbe _) => true
  | _ => false
  end.

(** `n=v cmd` for a command that does not itself write variables (external, not found, `:`,
    probe) leaves the environment exactly as it was. *)
Theorem temp_assign_undone : forall ts c e,
  noop_cmd c = true -> Forall (not_nested e) ts -> env_of (exec (ACmd ts c) e) = e.
Proof.
  intros ts c e Hc HF. destruct (apply_temps_top_only ts [] e HF) as (mp' & EQ & _).
  change ((KCommand, []) :: e) with (push_scope KCommand e) in EQ.
  rewrite env_of_cmd. cbv zeta. rewrite EQ.
  destruct (snd (apply_temps ts (push_scope KCommand e))); [reflexivity|].
  destruct c as [[]| | |]; try discriminate; reflexivity.
Qed.

(** `n=v f`: whatever the function body does short of `unset n`, the caller's [n] is as before *)
Theorem temp_func_restores : forall n ts body e,
  In n (map temp_name ts) -> Forall (not_nested e) ts -> Forall (fun a => nu n a = true) body ->
  let e' := env_of (exec (ACmd ts (CFunc body)) e) in
  kinds e' = kinds e /\ (forall j, scope_get j n e' = scope_get j n e) /\ get n e' = get n e.
Proof.
  intros n ts body e Hin HF HS. cbv zeta.
  assert (HJ : forall j, scope_get j n (env_of (exec (ACmd ts (CFunc body)) e)) = scope_get j n e).
  { rewrite env_of_cmd. cbv zeta. destruct (apply_temps_top_only ts [] e HF) as (mp' & EQ & Hb & _).
    change ((KCommand, []) :: e) with (push_scope KCommand e) in EQ, Hb. rewrite EQ.
    destruct (snd (apply_temps ts (push_scope KCommand e))); [reflexivity|].
    apply in_map_iff in Hin. destruct Hin as (t & <- & Hin).
    assert (S0 : shielded (temp_name t) 1 (push_scope KLocal ((KCommand, mp') :: e))).
    { split; [|reflexivity]. apply (Hb eq_refl t Hin). }
    destruct (exec_list_shield (temp_name t) body _ 1 HS S0) as (K & _ & B).
    destruct (env_of (exec_list body (push_scope KLocal ((KCommand, mp') :: e)))) as [|[k1 m1] [|[k2 m2] e4]];
      try discriminate.
    intros j. apply (B (S (S j))). lia. }
  pose proof (exec_kinds (ACmd ts (CFunc body)) e) as K.
  split; [exact K|]. split; [exact HJ|]. apply get_ext; assumption.
Qed.

(** the unrestricted statement is false: a prefix assignment nested inside a call that was
    itself invoked with a prefix assignment of the same name overwrites the outer binding *)
Lemma temp_assign_undone_refuted :
  exists ts c e, noop_cmd c = true /\ env_of (exec (ACmd ts c) e) <> e.
Proof.
  exists [([118; 97]%N, None, LScalar [50%N], false)], (CBuiltin BNop),
         [(KLocal, []); (KCommand, [([118; 97]%N, mkVar (VStr [49%N]) true false false XNone)]); (KGlobal, [])].
  split; [reflexivity|]. vm_compute. discriminate.
Qed.
