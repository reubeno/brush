(** C14: the printer keeps its tokens apart.  For every command of the sub-grammar whose words are
    plain, [tokenize (show pf c) = lexemes pf c], provided the printer separates redirection lists
    and pipeline bars (repaired flags), or the command is outside the decidable class [Known]. *)
From Coq Require Import String.
From BV Require Import Base.Prelude Base.Codec Print.Tokenize Print.Show.
Open Scope N_scope.

(** [chain_ok] that also checks the atoms and returns the pending lexeme at the end *)

Fixpoint chain (prev : option lexeme) (l : list atom) : option (option lexeme) :=
  match l with
  | [] => Some prev
  | a :: r => if atom_ok a && junction_ok prev a then chain (pend a) r else None
  end.

Definition not_ionum (p : option lexeme) : bool := match p with Some (LIoNum _) => false | _ => true end.

Lemma chain_sound l : forall prev y, chain prev l = Some y -> not_ionum y = true ->
  forallb atom_ok l = true /\ chain_ok prev l = true.
Proof.
  induction l as [|a r IH]; intros prev y H Hy.
  - cbn [chain] in H. inversion H. subst. split; [reflexivity|].
    cbn [chain_ok]. destruct y as [[w|o|n]|]; try reflexivity. discriminate.
  - cbn [chain] in H. destruct (atom_ok a && junction_ok prev a) eqn:E; [|discriminate].
    apply andb_true_iff in E. destruct E as [Ea Ej]. destruct (IH _ _ H Hy) as [H1 H2].
    cbn [forallb chain_ok]. rewrite Ea, Ej, H1, H2. split; reflexivity.
Qed.

Lemma chain_app l1 l2 : forall prev,
  chain prev (l1 ++ l2) = match chain prev l1 with Some p => chain p l2 | None => None end.
Proof.
  induction l1 as [|a r IH]; intros prev; [reflexivity|].
  cbn [app chain]. destruct (atom_ok a && junction_ok prev a); [apply IH | reflexivity].
Qed.

Lemma chain_bump l : forall prev, chain prev (bump l) = chain prev l.
Proof.
  induction l as [|a r IH]; intros prev; [reflexivity|].
  cbn [bump map chain]. fold (bump r). rewrite <- IH. destruct a; reflexivity.
Qed.

(** an operator is extended into another only by a character that can start an operator (apart
    from << into <<-, outside the model) *)
Lemma ext_table :
  forallb (fun p => heredoc_op (removelast p) || negb (is_operator (removelast p)) || can_start_op (last p 0))
          operators = true.
Proof. vm_compute. reflexivity. Qed.

Lemma op_wordchar (o : str) (c : char) : is_operator o = true -> heredoc_op o = false -> wordchar c = true ->
  is_operator (o ++ [c]) = false.
Proof.
  intros Ho Hh Hc. destruct (is_operator (o ++ [c])) eqn:E; [|reflexivity]. exfalso.
  apply is_operator_In in E. pose proof (proj1 (forallb_forall _ _) ext_table _ E) as H. cbn beta in H.
  rewrite removelast_last, last_last, Hh, Ho in H. cbn [orb negb] in H.
  destruct (wordchar_not_special c Hc) as [H1 _]. congruence.
Qed.

Lemma sep_table : forallb (fun o => negb (is_operator (o ++ [32])) && negb (is_operator (o ++ [10]))) operators = true.
Proof. vm_compute. reflexivity. Qed.

(** a pending lexeme that a blank or a newline may follow *)
Definition sep_safe (x : lexeme) : bool := lex_ok x && not_ionum (Some x).

Lemma sep_after x : sep_safe x = true -> sep_ok (Some x) 32 = true /\ sep_ok (Some x) 10 = true.
Proof.
  intros Hx. apply andb_true_iff in Hx as [Hx Hn].
  destruct x as [w|o|n]; cbn [sep_ok]; [split; reflexivity | | discriminate].
  cbn [lex_ok] in Hx. apply andb_true_iff in Hx as [Ho _]. apply is_operator_In in Ho.
  apply andb_true_iff. exact (proj1 (forallb_forall _ _) sep_table o Ho).
Qed.

Lemma glue_op_word o x : lex_ok (LOp o) = true ->
  lex_ok x = true -> (match x with LOp _ => False | _ => True end) -> glue_ok (Some (LOp o)) x = true.
Proof.
  intros Ho Hx Hw. cbn [glue_ok]. cbn [lex_ok] in Ho. apply andb_true_iff in Ho as [Ho Hh].
  apply negb_true_iff in Hh.
  assert (Hl : negb (is_nil (text x)) = true /\ forallb wordchar (text x) = true).
  { pose proof (lex_word_like x Hx) as Hl. destruct x; [exact Hl | contradiction | exact Hl]. }
  destruct Hl as [Hne Hpl]. destruct (text x) as [|c r]; [discriminate|].
  cbn [hd0 forallb] in *. apply andb_true_iff in Hpl as [Hc _].
  rewrite (op_wordchar o c Ho Hh Hc). reflexivity.
Qed.

Lemma glue_word_op w o : redir_start (hd0 o) = false -> glue_ok (Some (LWord w)) (LOp o) = true.
Proof. intros H. cbn [glue_ok]. rewrite H, andb_false_r. reflexivity. Qed.

Definition word_ok (w : str) : bool := negb (is_nil w) && forallb plain w.
Definition fd_ok (fd : option str) : bool := match fd with Some n => all_digits n | None => true end.
Definition redir_ok (r : redir) : bool :=
  match r with
  | RFile fd _ t => fd_ok fd && word_ok t
  | ROutErr w _ => word_ok w
  | RHereStr fd w => fd_ok fd && word_ok w
  end.
Definition item_ok (i : item) : bool := match i with IRedir r => redir_ok r | IWord w => word_ok w end.

Lemma word_ok_lex w : word_ok w = true -> lex_ok (LWord w) = true.
Proof.
  unfold word_ok. cbn [lex_ok]. intros H. apply andb_true_iff in H as [H1 H2].
  rewrite H1. cbn [andb]. clear H1. induction w as [|c r IH]; [reflexivity|].
  cbn [forallb] in *. apply andb_true_iff in H2 as [Hc Hr].
  rewrite (plain_wordchar c Hc), (IH Hr). reflexivity.
Qed.

Definition amp_text (app : bool) : str := if app then lit "&>>" else lit "&>".
Definition first_of_redir (r : redir) : lexeme :=
  match r with
  | RFile (Some n) _ _ => LIoNum n
  | RFile None k _ => LOp (kind_text k)
  | ROutErr _ app => LOp (amp_text app)
  | RHereStr (Some n) _ => LIoNum n
  | RHereStr None _ => LOp (lit "<<<")
  end.
Definition first_of_item (i : item) : lexeme :=
  match i with IRedir r => first_of_redir r | IWord w => LWord w end.

(** written behind the pending lexeme [prev], the atoms [l] are valid, compatible with their
    neighbours, and leave a lexeme of the class [E] pending *)
Definition ends (E : lexeme -> bool) (prev : option lexeme) (l : list atom) : Prop :=
  exists y, chain prev l = Some (Some y) /\ E y = true.

Lemma ends_nil (E : lexeme -> bool) y : E y = true -> ends E (Some y) [].
Proof. intros H. exists y. split; [reflexivity | exact H]. Qed.

Lemma ends_app (E1 E2 : lexeme -> bool) prev l1 l2 :
  ends E1 prev l1 -> (forall y, E1 y = true -> ends E2 (Some y) l2) -> ends E2 prev (l1 ++ l2).
Proof.
  intros [y [Hc Hy]] H2. destruct (H2 y Hy) as [y' [Hc' Hy']]. exists y'. split; [|exact Hy'].
  rewrite chain_app, Hc. exact Hc'.
Qed.

Lemma ends_tok (E : lexeme -> bool) prev d x l :
  lex_ok x = true -> glue_ok prev x = true -> ends E (Some x) l -> ends E prev (ATok d x :: l).
Proof.
  intros H1 H2 [y [Hc Hy]]. exists y. split; [|exact Hy].
  cbn [chain atom_ok junction_ok pend]. rewrite H1, H2. exact Hc.
Qed.
Lemma ends_sp (E : lexeme -> bool) prev d l : sep_ok prev 32 = true -> ends E None l -> ends E prev (ASp d :: l).
Proof.
  intros H [y [Hc Hy]]. exists y. split; [|exact Hy]. cbn [chain atom_ok junction_ok pend]. rewrite H. exact Hc.
Qed.
Lemma ends_nl (E : lexeme -> bool) prev l : sep_ok prev 10 = true -> ends E (Some NLOP) l -> ends E prev (ANl :: l).
Proof.
  intros H [y [Hc Hy]]. exists y. split; [|exact Hy]. cbn [chain atom_ok junction_ok pend]. rewrite H. exact Hc.
Qed.
Lemma ends_bump (E : lexeme -> bool) prev l : ends E prev l -> ends E prev (bump l).
Proof. intros [y [Hc Hy]]. exists y. rewrite chain_bump. split; assumption. Qed.
Lemma ends_weaken (E1 E2 : lexeme -> bool) prev l :
  (forall y, E1 y = true -> E2 y = true) -> ends E1 prev l -> ends E2 prev l.
Proof. intros H [y [Hc Hy]]. exists y. split; [exact Hc | exact (H y Hy)]. Qed.

(** how a command ends (a word, or the closing parenthesis of a subshell); how a compound does *)
Definition plain_word (y : lexeme) : bool := match y with LWord w => word_ok w | _ => false end.
Definition cmd_end (y : lexeme) : bool :=
  match y with LWord _ => lex_ok y | LOp o => str_eqb o (lit ")") | LIoNum _ => false end.
Definition compound_end (y : lexeme) : bool :=
  match y with
  | LWord w => str_eqb w (lit "}") || str_eqb w (lit "done") || str_eqb w (lit "fi") || str_eqb w (lit "esac")
  | LOp o => str_eqb o (lit ")")
  | LIoNum _ => false
  end.

(** for side conditions about the literal keywords and operators the printer writes *)
Ltac evaluate := vm_compute; reflexivity.

Lemma plain_word_cmd_end y : plain_word y = true -> cmd_end y = true.
Proof. destruct y as [w|o|n]; [apply word_ok_lex | discriminate | discriminate]. Qed.

Lemma compound_end_cases y : compound_end y = true ->
  y = LWord (lit "}") \/ y = LWord (lit "done") \/ y = LWord (lit "fi") \/ y = LWord (lit "esac") \/ y = LOp (lit ")").
Proof.
  destruct y as [w|o|n]; cbn [compound_end]; intros H; try discriminate.
  - repeat (apply orb_true_iff in H; destruct H as [H|H]); apply str_eqb_eq in H; subst; tauto.
  - apply str_eqb_eq in H. subst. tauto.
Qed.

Lemma compound_end_cmd_end y : compound_end y = true -> cmd_end y = true.
Proof. intros H. destruct (compound_end_cases y H) as [E|[E|[E|[E|E]]]]; subst; evaluate. Qed.

Lemma cmd_end_safe y : cmd_end y = true -> sep_safe y = true.
Proof.
  destruct y as [w|o|n]; cbn [cmd_end]; intros H; [|apply str_eqb_eq in H; subst; evaluate | discriminate].
  unfold sep_safe. rewrite H. reflexivity.
Qed.

Lemma cmd_end_sep y : cmd_end y = true -> sep_ok (Some y) 32 = true /\ sep_ok (Some y) 10 = true.
Proof. intros H. apply sep_after, cmd_end_safe, H. Qed.

Lemma cmd_end_glue_op y o : cmd_end y = true -> redir_start (hd0 o) = false -> glue_ok (Some y) (LOp o) = true.
Proof.
  intros H Hr. destruct y as [w|p|n]; cbn [cmd_end] in H; try discriminate.
  - apply glue_word_op. exact Hr.
  - (* nothing extends the closing parenthesis *)
    apply str_eqb_eq in H. subst p. reflexivity.
Qed.

Definition SEMI : lexeme := LOp (lit ";").
Definition AMP : lexeme := LOp (lit "&").
Lemma cmd_end_semi y : cmd_end y = true -> glue_ok (Some y) SEMI = true.
Proof. intros H. apply cmd_end_glue_op; [exact H | evaluate]. Qed.
Lemma cmd_end_amp y : cmd_end y = true -> glue_ok (Some y) AMP = true.
Proof. intros H. apply cmd_end_glue_op; [exact H | evaluate]. Qed.

Lemma compound_end_glue_op y o : compound_end y = true -> glue_ok (Some y) (LOp o) = true.
Proof. intros H. destruct (compound_end_cases y H) as [E|[E|[E|[E|E]]]]; subst; reflexivity. Qed.

(** what may stand before a command; | only when the printer glues the bar ([b]) *)
Definition BAR : lexeme := LOp (lit "|").
Definition gprev (b : bool) (prev : option lexeme) : Prop :=
  prev = None \/ prev = Some NLOP \/ (b = true /\ prev = Some BAR).

Lemma gprev_glue b prev x : gprev b prev -> (b = true -> glue_ok (Some BAR) x = true) -> glue_ok prev x = true.
Proof. intros [E|[E|[Eb E]]] Hs; subst; [reflexivity | apply nl_glue | exact (Hs eq_refl)]. Qed.
Lemma gprev_sep b prev (c : char) : gprev b prev -> c = 32 \/ c = 10 -> sep_ok prev c = true.
Proof.
  intros [E|[E|[Eb E]]] Hc; subst; [reflexivity | apply nl_sep |].
  destruct Hc as [-> | ->]; evaluate.
Qed.
Lemma gprev_none b : gprev b None. Proof. left. reflexivity. Qed.
Lemma gprev_nl b : gprev b (Some NLOP). Proof. right. left. reflexivity. Qed.

Lemma gprev_word b prev w : gprev b prev -> lex_ok (LWord w) = true -> glue_ok prev (LWord w) = true.
Proof.
  intros Hp Hl. apply (gprev_glue b); [exact Hp|]. intros _. apply glue_op_word; [evaluate | exact Hl | exact I].
Qed.

Lemma ends_word prev w : word_ok w = true -> glue_ok prev (LWord w) = true -> ends plain_word prev [Wd w].
Proof. intros Hw Hg. apply ends_tok; [apply word_ok_lex; exact Hw | exact Hg | apply ends_nil; exact Hw]. Qed.

Lemma ends_op_word prev o w :
  lex_ok (LOp o) = true -> glue_ok prev (LOp o) = true -> word_ok w = true ->
  ends plain_word prev [ATok 0 (LOp o); SP; Wd w].
Proof.
  intros Ho Hg Hw. apply ends_tok; [exact Ho | exact Hg |].
  apply ends_sp; [apply sep_after; unfold sep_safe; rewrite Ho; reflexivity|].
  apply ends_word; [exact Hw | reflexivity].
Qed.

Lemma ends_fd_redir prev fd o w :
  fd_ok fd = true -> lex_ok (LOp o) = true /\ redir_start (hd0 o) = true ->
  glue_ok prev (match fd with Some n => LIoNum n | None => LOp o end) = true -> word_ok w = true ->
  ends plain_word prev (fd_atoms fd ++ [ATok 0 (LOp o); SP; Wd w]).
Proof.
  intros Hfd [Ho Hr] Hg Hw. destruct fd as [n|]; cbn [fd_atoms app].
  - apply ends_tok; [exact Hfd | exact Hg |]. apply ends_op_word; [exact Ho | cbn [glue_ok]; exact Hr | exact Hw].
  - apply ends_op_word; assumption.
Qed.

Lemma ends_redir prev r :
  redir_ok r = true -> glue_ok prev (first_of_redir r) = true -> ends plain_word prev (a_redir r).
Proof.
  intros Hok Hg. destruct r as [fd k t | w app | fd w]; cbn [redir_ok] in Hok.
  - apply andb_true_iff in Hok as [Hfd Ht].
    apply ends_fd_redir; [exact Hfd | destruct k; split; evaluate | destruct fd; exact Hg | exact Ht].
  - apply ends_op_word; [destruct app; evaluate | exact Hg | exact Hok].
  - apply andb_true_iff in Hok as [Hfd Hw].
    apply (ends_fd_redir prev fd (lit "<<<")); [exact Hfd | split; evaluate | destruct fd; exact Hg | exact Hw].
Qed.

Lemma ends_item prev i :
  item_ok i = true -> glue_ok prev (first_of_item i) = true -> ends plain_word prev (a_item i).
Proof. destruct i as [r|w]; [apply ends_redir | apply ends_word]. Qed.

Lemma sep_by_cons {A} (f : A -> list atom) x y r : sep_by f (x :: y :: r) = f x ++ SP :: sep_by f (y :: r).
Proof. reflexivity. Qed.

Section Lists.
Context {A : Type} (f : A -> list atom) (ok : A -> bool).

Lemma ends_sep_by (first : A -> lexeme) :
  (forall prev x, ok x = true -> glue_ok prev (first x) = true -> ends plain_word prev (f x)) ->
  forall l x prev, forallb ok (x :: l) = true -> glue_ok prev (first x) = true ->
  ends plain_word prev (sep_by f (x :: l)).
Proof.
  intros Hf. induction l as [|x2 l IH]; intros x prev Hok Hg;
    cbn [forallb] in Hok; apply andb_true_iff in Hok as [Hx Hl].
  - apply Hf; assumption.
  - rewrite sep_by_cons. eapply ends_app; [apply Hf; eassumption|].
    intros [w| |] Hy; try discriminate. apply ends_sp; [reflexivity|]. apply IH; [exact Hl | reflexivity].
Qed.

Lemma ends_flat_sp :
  (forall x, ok x = true -> ends plain_word None (f x)) ->
  forall l y, forallb ok l = true -> cmd_end y = true ->
  ends cmd_end (Some y) (flat_map (fun x => SP :: f x) l).
Proof.
  intros Hf. induction l as [|x l IH]; intros y Hok Hy.
  - apply ends_nil. exact Hy.
  - cbn [forallb] in Hok. apply andb_true_iff in Hok as [Hx Hl]. cbn [flat_map app].
    apply ends_sp; [exact (proj1 (cmd_end_sep y Hy))|].
    eapply ends_app; [exact (Hf x Hx)|]. intros y' Hy'. apply IH; [exact Hl | apply plain_word_cmd_end; exact Hy'].
Qed.
End Lists.

(** redirection lists that go wrong when printed without blanks: two or more, or one that starts
    with an fd number (which joins the closing word before it) *)
Definition risky (rs : option (list redir)) : bool :=
  match rs with
  | None | Some [] => false
  | Some [r] => match first_of_redir r with LIoNum _ => true | _ => false end
  | Some _ => true
  end.
Definition redirs_ok (rs : option (list redir)) : bool :=
  match rs with None => true | Some l => forallb redir_ok l end.

(** a simple command that starts with &> : directly behind | it reads |& > *)
Definition amp_first (its : list item) : bool :=
  match its with IRedir (ROutErr _ _) :: _ => true | _ => false end.

Section Ok.
Variable pf : pflags.

Definition rs_ok (rs : option (list redir)) : bool := redirs_ok rs && (f_redir_sep pf || negb (risky rs)).

(** the list ends without &: required of conditions, behind which the printer writes ; *)
Fixpoint last_sync_r (async : bool) (r : clrest) : bool :=
  match r with ClNil => negb async | ClCons _ async' r' => last_sync_r async' r' end.
Definition last_sync (l : clist) : bool := match l with CList _ async r => last_sync_r async r end.

(** [bar]: the command is printed directly behind a | *)
Fixpoint ok_cmd (bar : bool) (c : cmd) : bool :=
  match c with
  | CSimple pre name suf =>
      let its := simple_items pre name suf in
      negb (is_nil its) && forallb item_ok its && negb (bar && amp_first its)
  | CCompound k rs => ok_compound k && rs_ok rs
  | CFunction name k rs => word_ok name && ok_compound k && rs_ok rs
  end
with ok_compound (k : compound) : bool :=
  match k with
  | KBrace l => ok_clist l
  | KSubshell l => ok_clist l
  | KFor v vals body =>
      word_ok v && match vals with Some l => forallb word_ok l | None => true end && ok_clist body
  | KWhile c b => ok_clist c && last_sync c && ok_clist b
  | KUntil c b => ok_clist c && last_sync c && ok_clist b
  | KIf c t es => ok_clist c && last_sync c && ok_clist t && ok_elses es
  | KCase w items => word_ok w && ok_citems items
  end
with ok_pipeline (p : pipeline) : bool :=
  match p with Pipe _ _ c r => ok_cmd false c && ok_cmds r end
with ok_cmds (r : cmds) : bool :=
  match r with CmdsNil => true | CmdsCons c r' => ok_cmd (negb (f_pipe_sep pf)) c && ok_cmds r' end
with ok_andor (a : andor) : bool :=
  match a with AndOr p r => ok_pipeline p && ok_aorest r end
with ok_aorest (r : aorest) : bool :=
  match r with AoNil => true | AoCons _ p r' => ok_pipeline p && ok_aorest r' end
with ok_clist (l : clist) : bool :=
  match l with CList a _ r => ok_andor a && ok_clrest r end
with ok_clrest (r : clrest) : bool :=
  match r with ClNil => true | ClCons a _ r' => ok_andor a && ok_clrest r' end
with ok_elses (es : elses) : bool :=
  match es with
  | ElNil => true
  | ElIf c b r => ok_clist c && last_sync c && ok_clist b && ok_elses r
  | ElElse b r => ok_clist b && ok_elses r
  end
with ok_citems (is : citems) : bool :=
  match is with
  | CiNil => true
  | CiSome pats body _ r => negb (is_nil pats) && forallb word_ok pats && ok_clist body && ok_citems r
  | CiNone pats _ r => negb (is_nil pats) && forallb word_ok pats && ok_citems r
  end.
End Ok.
Scheme cmd_mut := Induction for cmd Sort Prop
with compound_mut := Induction for compound Sort Prop
with pipeline_mut := Induction for pipeline Sort Prop
with cmds_mut := Induction for cmds Sort Prop
with andor_mut := Induction for andor Sort Prop
with aorest_mut := Induction for aorest Sort Prop
with clist_mut := Induction for clist Sort Prop
with clrest_mut := Induction for clrest Sort Prop
with elses_mut := Induction for elses Sort Prop
with citems_mut := Induction for citems Sort Prop.
Combined Scheme ast_mutind from cmd_mut, compound_mut, pipeline_mut, cmds_mut, andor_mut, aorest_mut,
  clist_mut, clrest_mut, elses_mut, citems_mut.

Section Sep.
Variable pf : pflags.

Lemma ends_redirs y rs : rs_ok pf rs = true -> compound_end y = true -> ends cmd_end (Some y) (a_redirs pf rs).
Proof.
  unfold rs_ok. intros H Hy. apply andb_true_iff in H as [Hok Hrisk].
  pose proof (compound_end_cmd_end y Hy) as Hey.
  destruct rs as [l|]; [|apply ends_nil; exact Hey]. cbn [redirs_ok a_redirs] in *.
  destruct (f_redir_sep pf).
  - apply (ends_flat_sp a_redir redir_ok); [|exact Hok | exact Hey].
    intros r Hr. apply ends_redir; [exact Hr | reflexivity].
  - (* glued: at most one redirection, which starts with an operator *)
    cbn [orb] in Hrisk. apply negb_true_iff in Hrisk.
    destruct l as [|r [|r2 l]]; cbn [risky] in Hrisk; [apply ends_nil; exact Hey | | discriminate].
    cbn [forallb] in Hok. rewrite andb_true_r in Hok. cbn [flat_map app]. rewrite app_nil_r.
    apply (ends_weaken plain_word); [exact plain_word_cmd_end|]. apply ends_redir; [exact Hok|].
    destruct r as [[n|] k t | w app | [n|] w]; cbn [first_of_redir] in *;
      [discriminate | apply compound_end_glue_op; exact Hy ..| discriminate | apply compound_end_glue_op; exact Hy].
Qed.

Lemma first_item_glue_bar i r :
  item_ok i = true -> amp_first (i :: r) = false -> glue_ok (Some BAR) (first_of_item i) = true.
Proof.
  intros Hok Ha.
  destruct i as [[[n|] k t | w app | [n|] w] | w]; cbn [first_of_item first_of_redir item_ok redir_ok fd_ok amp_first] in *.
  - apply andb_true_iff in Hok as [Hn _]. apply glue_op_word; [evaluate | exact Hn | exact I].
  - destruct k; evaluate.
  - discriminate.
  - apply andb_true_iff in Hok as [Hn _]. apply glue_op_word; [evaluate | exact Hn | exact I].
  - evaluate.
  - apply glue_op_word; [evaluate | apply word_ok_lex; exact Hok | exact I].
Qed.

Lemma a_pats_cons x y r : a_pats (x :: y :: r) = Wd x :: OP "|" :: a_pats (y :: r).
Proof. reflexivity. Qed.

Lemma ends_pats pats : forall x prev, forallb word_ok (x :: pats) = true ->
  (forall w, word_ok w = true -> glue_ok prev (LWord w) = true) ->
  ends plain_word prev (a_pats (x :: pats)).
Proof.
  induction pats as [|x2 r IH]; intros x prev Hok Hg;
    cbn [forallb] in Hok; apply andb_true_iff in Hok as [Hx Hr].
  - apply ends_word; [exact Hx | apply Hg; exact Hx].
  - rewrite a_pats_cons.
    apply ends_tok; [apply word_ok_lex; exact Hx | apply Hg; exact Hx |].
    apply ends_tok; [evaluate | apply glue_word_op; evaluate |].
    apply IH; [exact Hr|]. intros w Hw. apply glue_op_word; [evaluate | apply word_ok_lex; exact Hw | exact I].
Qed.

Lemma ends_kw_sp (E : lexeme -> bool) b prev s l :
  gprev b prev -> lex_ok (LWord (lit s)) = true -> ends E None l -> ends E prev (KW s :: SP :: l).
Proof.
  intros Hp Hl H. apply ends_tok; [exact Hl | apply (gprev_word b); assumption |].
  apply ends_sp; [reflexivity | exact H].
Qed.

Lemma ends_close y s : sep_safe y = true -> lex_ok (LWord (lit s)) = true -> compound_end (LWord (lit s)) = true ->
  ends compound_end (Some y) [ANl; KW s].
Proof.
  intros Hy Hl Hc. apply ends_nl; [exact (proj2 (sep_after y Hy))|].
  apply ends_tok; [exact Hl | apply nl_glue | apply ends_nil; exact Hc].
Qed.

Lemma ends_do_group prev (body : list atom) :
  glue_ok prev (LWord (lit "do")) = true -> ends sep_safe (Some NLOP) body ->
  ends compound_end prev (KW "do" :: ANl :: bump body ++ [ANl; KW "done"]).
Proof.
  intros Hg Hb. apply ends_tok; [evaluate | exact Hg |]. apply ends_nl; [reflexivity|].
  eapply ends_app; [apply ends_bump; exact Hb|]. intros y Hy. apply ends_close; [exact Hy | evaluate | evaluate].
Qed.

Lemma ends_cond_then (E : lexeme -> bool) (c t rest : list atom) :
  ends cmd_end None c -> ends sep_safe (Some NLOP) t -> (forall y, sep_safe y = true -> ends E (Some y) rest) ->
  ends E None (c ++ OP ";" :: SP :: KW "then" :: ANl :: bump t ++ rest).
Proof.
  intros Hc Ht Hr. eapply ends_app; [exact Hc|]. intros y Hy.
  apply ends_tok; [evaluate | apply cmd_end_semi; exact Hy |]. apply ends_sp; [evaluate|].
  apply ends_tok; [evaluate | reflexivity |]. apply ends_nl; [reflexivity|].
  eapply ends_app; [apply ends_bump; exact Ht | exact Hr].
Qed.

Lemma ends_case_head (E : lexeme -> bool) y pats rest :
  sep_safe y = true -> negb (is_nil pats) = true -> forallb word_ok pats = true ->
  ends E (Some NLOP) rest -> ends E (Some y) (ANl :: a_pats pats ++ OP ")" :: ANl :: rest).
Proof.
  intros Hy Hne Hp Hr. destruct pats as [|x pats]; [discriminate|].
  apply ends_nl; [exact (proj2 (sep_after y Hy))|].
  eapply ends_app; [apply (ends_pats pats x _ Hp); intros; apply nl_glue|].
  intros [w| |] Hw; try discriminate.
  apply ends_tok; [evaluate | apply glue_word_op; evaluate |]. apply ends_nl; [evaluate | exact Hr].
Qed.

Lemma ends_case_post (E : lexeme -> bool) y post rest :
  sep_safe y = true -> ends E (Some (LOp (lit (post_text post)))) rest ->
  ends E (Some y) (ANl :: OP (post_text post) :: rest).
Proof.
  intros Hy Hr. apply ends_nl; [exact (proj2 (sep_after y Hy))|].
  apply ends_tok; [destruct post; evaluate | apply nl_glue | exact Hr].
Qed.

(** unfolding equations: [cbn] would expose the mutual fixpoint bodies *)
Lemma ok_simple bar pre name suf : ok_cmd pf bar (CSimple pre name suf) =
  negb (is_nil (simple_items pre name suf)) && forallb item_ok (simple_items pre name suf)
  && negb (bar && amp_first (simple_items pre name suf)). Proof. reflexivity. Qed.
Lemma ok_cmdscons c r : ok_cmds pf (CmdsCons c r) = ok_cmd pf (negb (f_pipe_sep pf)) c && ok_cmds pf r. Proof. reflexivity. Qed.

Lemma ok_ccompound bar k rs : ok_cmd pf bar (CCompound k rs) = ok_compound pf k && rs_ok pf rs. Proof. reflexivity. Qed.
Lemma ok_cfunction bar n k rs : ok_cmd pf bar (CFunction n k rs) = word_ok n && ok_compound pf k && rs_ok pf rs. Proof. reflexivity. Qed.
Lemma ok_kbrace l : ok_compound pf (KBrace l) = ok_clist pf l. Proof. reflexivity. Qed.
Lemma ok_ksub l : ok_compound pf (KSubshell l) = ok_clist pf l. Proof. reflexivity. Qed.
Lemma ok_kfor v vals b : ok_compound pf (KFor v vals b) =
  word_ok v && match vals with Some l => forallb word_ok l | None => true end && ok_clist pf b. Proof. reflexivity. Qed.
Lemma ok_kif c t es : ok_compound pf (KIf c t es) = ok_clist pf c && last_sync c && ok_clist pf t && ok_elses pf es. Proof. reflexivity. Qed.
Lemma ok_kcase w is : ok_compound pf (KCase w is) = word_ok w && ok_citems pf is. Proof. reflexivity. Qed.
Lemma ok_pipe tm bg c r : ok_pipeline pf (Pipe tm bg c r) = ok_cmd pf false c && ok_cmds pf r. Proof. reflexivity. Qed.
Lemma ok_andor_eq p r : ok_andor pf (AndOr p r) = ok_pipeline pf p && ok_aorest pf r. Proof. reflexivity. Qed.
Lemma ok_aocons a p r : ok_aorest pf (AoCons a p r) = ok_pipeline pf p && ok_aorest pf r. Proof. reflexivity. Qed.
Lemma ok_clist_eq a s r : ok_clist pf (CList a s r) = ok_andor pf a && ok_clrest pf r. Proof. reflexivity. Qed.
Lemma ok_clcons a s r : ok_clrest pf (ClCons a s r) = ok_andor pf a && ok_clrest pf r. Proof. reflexivity. Qed.
Lemma ok_elif c b r : ok_elses pf (ElIf c b r) = ok_clist pf c && last_sync c && ok_clist pf b && ok_elses pf r. Proof. reflexivity. Qed.
Lemma ok_elelse b r : ok_elses pf (ElElse b r) = ok_clist pf b && ok_elses pf r. Proof. reflexivity. Qed.
Lemma ok_cisome ps b po r : ok_citems pf (CiSome ps b po r) =
  negb (is_nil ps) && forallb word_ok ps && ok_clist pf b && ok_citems pf r. Proof. reflexivity. Qed.
Lemma ok_cinone ps po r : ok_citems pf (CiNone ps po r) = negb (is_nil ps) && forallb word_ok ps && ok_citems pf r. Proof. reflexivity. Qed.
Lemma a_csimple pre name suf : a_cmd pf (CSimple pre name suf) = a_simple pre name suf. Proof. reflexivity. Qed.
Lemma a_ccompound k rs : a_cmd pf (CCompound k rs) = a_compound pf k ++ a_redirs pf rs. Proof. reflexivity. Qed.
Lemma a_cfunction n k rs : a_cmd pf (CFunction n k rs) =
  [Wd n; SP; OP "("; OP ")"; SP; ANl] ++ a_compound pf k ++ a_redirs pf rs. Proof. reflexivity. Qed.
Lemma a_kbrace l : a_compound pf (KBrace l) = [KW "{"; SP; ANl] ++ bump (a_clist pf l) ++ [ANl; KW "}"]. Proof. reflexivity. Qed.
Lemma a_ksub l : a_compound pf (KSubshell l) = [OP "("; SP] ++ a_clist pf l ++ [SP; OP ")"]. Proof. reflexivity. Qed.
Lemma a_kif c t es : a_compound pf (KIf c t es) =
  [KW "if"; SP] ++ a_clist pf c ++ [OP ";"; SP; KW "then"; ANl] ++ bump (a_clist pf t) ++ a_elses pf es ++ [ANl; KW "fi"]. Proof. reflexivity. Qed.
Lemma a_kcase w is : a_compound pf (KCase w is) =
  [KW "case"; SP; Wd w; SP; KW "in"] ++ bump (a_citems pf is) ++ [ANl; KW "esac"]. Proof. reflexivity. Qed.
Lemma a_pipe tm bg c r : a_pipeline pf (Pipe tm bg c r) =
  match tm with Some true => [KW "time"; SP; KW "-p"; SP] | Some false => [KW "time"; SP] | None => [] end ++
  (if bg then [KW "!"; SP] else []) ++ a_cmd pf c ++ a_cmds pf r. Proof. reflexivity. Qed.
Lemma a_cmdscons c r : a_cmds pf (CmdsCons c r) =
  [SP; OP "|"] ++ (if f_pipe_sep pf then [SP] else []) ++ a_cmd pf c ++ a_cmds pf r. Proof. reflexivity. Qed.
Lemma a_andor_eq p r : a_andor pf (AndOr p r) = a_pipeline pf p ++ a_aorest pf r. Proof. reflexivity. Qed.
Lemma a_aocons a p r : a_aorest pf (AoCons a p r) =
  [SP; OP (if a then "&&" else "||")%string; SP] ++ a_pipeline pf p ++ a_aorest pf r. Proof. reflexivity. Qed.
Lemma a_clist_eq a s r : a_clist pf (CList a s r) = a_andor pf a ++ a_sepop s (is_clnil r) ++ a_clrest pf r. Proof. reflexivity. Qed.
Lemma a_clcons a s r : a_clrest pf (ClCons a s r) = [ANl] ++ a_andor pf a ++ a_sepop s (is_clnil r) ++ a_clrest pf r. Proof. reflexivity. Qed.
Lemma a_elif c b r : a_elses pf (ElIf c b r) =
  [ANl; KW "elif"; SP] ++ a_clist pf c ++ [OP ";"; SP; KW "then"; ANl] ++ bump (a_clist pf b) ++ a_elses pf r. Proof. reflexivity. Qed.
Lemma a_elelse b r : a_elses pf (ElElse b r) = [ANl; KW "else"; ANl] ++ bump (a_clist pf b) ++ a_elses pf r. Proof. reflexivity. Qed.
Lemma a_cisome ps b po r : a_citems pf (CiSome ps b po r) =
  [ANl] ++ a_pats ps ++ [OP ")"; ANl] ++ bump (a_clist pf b) ++ [ANl; OP (post_text po)] ++ a_citems pf r. Proof. reflexivity. Qed.
Lemma a_cinone ps po r : a_citems pf (CiNone ps po r) =
  [ANl] ++ a_pats ps ++ [OP ")"; ANl] ++ [ANl; OP (post_text po)] ++ a_citems pf r. Proof. reflexivity. Qed.

Lemma a_kfor v vals body : a_compound pf (KFor v vals body) =
  a_for_head pf v vals ++ [OP ";"; ANl] ++ [KW "do"; ANl] ++ bump (a_clist pf body) ++ [ANl; KW "done"].
Proof. reflexivity. Qed.

(** a list whose last item is asynchronous ends with &, of which only that a separator may follow
    is kept *)
Definition list_end (sync : bool) (y : lexeme) : bool := if sync then cmd_end y else sep_safe y.

Lemma list_end_safe s y : list_end s y = true -> sep_safe y = true.
Proof. destruct s; [apply cmd_end_safe | exact (fun H => H)]. Qed.

(** The invariant, one statement for each syntactic class: the atoms of a well-formed piece, written
    where such a piece may stand, leave pending a lexeme of the class the enclosing construct
    relies on.  A compound command starts with a keyword or a parenthesis, which | never extends,
    so [P_compound] holds for either [b].  The tails start behind the end of what precedes them. *)
Definition P_cmd (c : cmd) : Prop := forall bar prev, ok_cmd pf bar c = true -> gprev bar prev ->
  ends cmd_end prev (a_cmd pf c).
Definition P_compound (k : compound) : Prop := forall b prev, ok_compound pf k = true -> gprev b prev ->
  ends compound_end prev (a_compound pf k).
Definition P_pipeline (p : pipeline) : Prop := forall prev, ok_pipeline pf p = true -> gprev false prev ->
  ends cmd_end prev (a_pipeline pf p).
Definition P_cmds (r : cmds) : Prop := forall y, ok_cmds pf r = true -> cmd_end y = true ->
  ends cmd_end (Some y) (a_cmds pf r).
Definition P_andor (a : andor) : Prop := forall prev, ok_andor pf a = true -> gprev false prev ->
  ends cmd_end prev (a_andor pf a).
Definition P_aorest (r : aorest) : Prop := forall y, ok_aorest pf r = true -> cmd_end y = true ->
  ends cmd_end (Some y) (a_aorest pf r).
Definition P_clist (l : clist) : Prop := forall prev, ok_clist pf l = true -> gprev false prev ->
  ends (list_end (last_sync l)) prev (a_clist pf l).
Definition P_clrest (r : clrest) : Prop := forall y async, ok_clrest pf r = true -> cmd_end y = true ->
  ends (list_end (last_sync_r async r)) (Some y) (a_sepop async (is_clnil r) ++ a_clrest pf r).
Definition P_elses (es : elses) : Prop := forall y, ok_elses pf es = true -> sep_safe y = true ->
  ends sep_safe (Some y) (a_elses pf es).
Definition P_citems (is : citems) : Prop := forall y, ok_citems pf is = true -> sep_safe y = true ->
  ends sep_safe (Some y) (a_citems pf is).

Lemma body_ends l : P_clist l -> ok_clist pf l = true -> ends sep_safe (Some NLOP) (a_clist pf l).
Proof.
  intros IH Hok. apply (ends_weaken (list_end (last_sync l))); [apply list_end_safe|].
  apply IH; [exact Hok | apply gprev_nl].
Qed.
Lemma cond_ends l : P_clist l -> ok_clist pf l = true -> last_sync l = true -> ends cmd_end None (a_clist pf l).
Proof. intros IH Hok Hs. specialize (IH None Hok (gprev_none false)). rewrite Hs in IH. exact IH. Qed.

Lemma ends_loop s b prev c body :
  lex_ok (LWord (lit s)) = true -> P_clist c -> P_clist body ->
  ok_clist pf c && last_sync c && ok_clist pf body = true -> gprev b prev ->
  ends compound_end prev (KW s :: SP :: a_clist pf c ++ OP ";" :: SP :: KW "do" :: ANl :: bump (a_clist pf body) ++ [ANl; KW "done"]).
Proof.
  intros Hs IHc IHb Hok Hp. apply andb_true_iff in Hok as [Hok Hbody]. apply andb_true_iff in Hok as [Hc Hsync].
  apply (ends_kw_sp _ b); [exact Hp | exact Hs |].
  eapply ends_app; [exact (cond_ends c IHc Hc Hsync)|]. intros y Hy.
  apply ends_tok; [evaluate | apply cmd_end_semi; exact Hy |]. apply ends_sp; [evaluate|].
  apply ends_do_group; [reflexivity | exact (body_ends body IHb Hbody)].
Qed.

Theorem printer_chains :
  (forall c, P_cmd c) /\ (forall k, P_compound k) /\ (forall p, P_pipeline p) /\ (forall r, P_cmds r) /\
  (forall a, P_andor a) /\ (forall r, P_aorest r) /\ (forall l, P_clist l) /\ (forall r, P_clrest r) /\
  (forall es, P_elses es) /\ (forall is, P_citems is).
Proof.
  apply ast_mutind.
  - (* CSimple *)
    intros pre name suf bar prev Hok Hp. rewrite ok_simple in Hok.
    apply andb_true_iff in Hok as [Hok Hbar]. apply andb_true_iff in Hok as [Hne Hits].
    rewrite a_csimple. unfold a_simple. destruct (simple_items pre name suf) as [|i r]; [discriminate|].
    apply (ends_weaken plain_word); [exact plain_word_cmd_end|].
    apply (ends_sep_by a_item item_ok first_of_item ends_item); [exact Hits|].
    apply (gprev_glue bar); [exact Hp|]. intros ->.
    cbn [forallb] in Hits. apply andb_true_iff in Hits as [Hi _]. apply negb_true_iff in Hbar.
    apply (first_item_glue_bar i r); [exact Hi | exact Hbar].
  - (* CCompound *)
    intros k IHk rs bar prev Hok Hp. rewrite ok_ccompound in Hok. apply andb_true_iff in Hok as [Hk Hrs].
    rewrite a_ccompound. eapply ends_app; [exact (IHk bar prev Hk Hp)|].
    intros y Hy. apply ends_redirs; assumption.
  - (* CFunction *)
    intros name k IHk rs bar prev Hok Hp. rewrite ok_cfunction in Hok.
    apply andb_true_iff in Hok as [Hok Hrs]. apply andb_true_iff in Hok as [Hn Hk].
    pose proof (word_ok_lex name Hn) as Hl. rewrite a_cfunction. cbn [app].
    apply ends_tok; [exact Hl | apply (gprev_word bar); assumption |]. apply ends_sp; [reflexivity|].
    apply ends_tok; [evaluate | reflexivity |]. apply ends_tok; [evaluate | evaluate |].
    apply ends_sp; [evaluate|]. apply ends_nl; [reflexivity|].
    eapply ends_app; [exact (IHk false _ Hk (gprev_nl false))|].
    intros y Hy. apply ends_redirs; assumption.
  - (* KBrace *)
    intros l IHl b prev Hok Hp. rewrite ok_kbrace in Hok. rewrite a_kbrace. cbn [app].
    apply (ends_kw_sp _ b); [exact Hp | evaluate |]. apply ends_nl; [reflexivity|].
    eapply ends_app; [apply ends_bump; exact (body_ends l IHl Hok)|].
    intros y Hy. apply ends_close; [exact Hy | evaluate | evaluate].
  - (* KSubshell *)
    intros l IHl b prev Hok Hp. rewrite ok_ksub in Hok. rewrite a_ksub. cbn [app].
    apply ends_tok; [evaluate | apply (gprev_glue b); [exact Hp | intros _; evaluate] |]. apply ends_sp; [evaluate|].
    eapply ends_app; [exact (IHl None Hok (gprev_none false))|]. intros y Hy.
    apply ends_sp; [exact (proj1 (sep_after y (list_end_safe _ y Hy)))|].
    apply ends_tok; [evaluate | reflexivity | apply ends_nil; evaluate].
  - (* KFor *)
    intros v vals body IHb b prev Hok Hp. rewrite ok_kfor in Hok.
    apply andb_true_iff in Hok as [Hok Hbody]. apply andb_true_iff in Hok as [Hv Hvals].
    pose proof (word_ok_lex v Hv) as Hlv.
    assert (Htail : forall prev', glue_ok prev' SEMI = true ->
              ends compound_end prev' (OP ";" :: ANl :: KW "do" :: ANl :: bump (a_clist pf body) ++ [ANl; KW "done"])).
    { intros prev' Hg. apply ends_tok; [evaluate | exact Hg |]. apply ends_nl; [evaluate|].
      apply ends_do_group; [apply nl_glue | exact (body_ends body IHb Hbody)]. }
    rewrite a_kfor. unfold a_for_head. destruct (f_for_in_always pf); rewrite <- !app_assoc; cbn [app].
    + (* for v in [words]; *)
      apply (ends_kw_sp _ b); [exact Hp | evaluate |].
      apply ends_tok; [exact Hlv | reflexivity |]. apply ends_sp; [reflexivity|].
      apply ends_tok; [evaluate | reflexivity |]. apply ends_sp; [reflexivity|].
      destruct vals as [[|w l]|]; [exact (Htail None eq_refl) | | exact (Htail None eq_refl)].
      eapply ends_app; [apply (ends_sep_by (fun w => [Wd w]) word_ok LWord ends_word); [exact Hvals | reflexivity]|].
      intros y Hy. exact (Htail _ (cmd_end_semi y (plain_word_cmd_end y Hy))).
    + (* for v [in words]; *)
      apply (ends_kw_sp _ b); [exact Hp | evaluate |]. apply ends_tok; [exact Hlv | reflexivity |].
      destruct vals as [l|]; cbn [app]; [|exact (Htail _ (cmd_end_semi (LWord v) Hlv))].
      apply ends_sp; [reflexivity|]. apply ends_tok; [evaluate | reflexivity |].
      eapply ends_app; [apply (ends_flat_sp (fun w => [Wd w]) word_ok); [|exact Hvals | evaluate]|].
      * intros w Hw. apply ends_word; [exact Hw | reflexivity].
      * intros y Hy. exact (Htail _ (cmd_end_semi y Hy)).
  - (* KWhile: goal and [Hok] are those of [ends_loop] up to unfolding [a_compound], [ok_compound] *)
    intros c IHc body IHb b prev Hok Hp. apply (ends_loop "while" b); [evaluate | assumption ..].
  - (* KUntil *)
    intros c IHc body IHb b prev Hok Hp. apply (ends_loop "until" b); [evaluate | assumption ..].
  - (* KIf *)
    intros c IHc t IHt es IHes b prev Hok Hp. rewrite ok_kif in Hok. apply andb_true_iff in Hok as [Hok Hes].
    apply andb_true_iff in Hok as [Hok Ht]. apply andb_true_iff in Hok as [Hc Hsync].
    rewrite a_kif. cbn [app]. apply (ends_kw_sp _ b); [exact Hp | evaluate |].
    apply ends_cond_then; [exact (cond_ends c IHc Hc Hsync) | exact (body_ends t IHt Ht) |].
    intros y Hy. eapply ends_app; [exact (IHes y Hes Hy)|].
    intros y' Hy'. apply ends_close; [exact Hy' | evaluate | evaluate].
  - (* KCase *)
    intros w items IHi b prev Hok Hp. rewrite ok_kcase in Hok. apply andb_true_iff in Hok as [Hw Hi].
    rewrite a_kcase. cbn [app]. apply (ends_kw_sp _ b); [exact Hp | evaluate |].
    apply ends_tok; [apply word_ok_lex; exact Hw | reflexivity |]. apply ends_sp; [reflexivity|].
    apply ends_tok; [evaluate | reflexivity |].
    eapply ends_app; [apply ends_bump; apply (IHi _ Hi); evaluate|].
    intros y Hy. apply ends_close; [exact Hy | evaluate | evaluate].
  - (* Pipe *)
    intros timed bang c IHc r IHr prev Hok Hp. rewrite ok_pipe in Hok. apply andb_true_iff in Hok as [Hc Hr].
    assert (Hbody : forall prev', gprev false prev' -> ends cmd_end prev' (a_cmd pf c ++ a_cmds pf r)).
    { intros prev' Hp'. eapply ends_app; [exact (IHc false prev' Hc Hp')|]. intros y. apply IHr. exact Hr. }
    assert (Hbang : forall prev', gprev false prev' ->
              ends cmd_end prev' ((if bang then [KW "!"; SP] else []) ++ a_cmd pf c ++ a_cmds pf r)).
    { intros prev' Hp'. destruct bang; [|exact (Hbody prev' Hp')]. cbn [app].
      apply (ends_kw_sp _ false); [exact Hp' | evaluate | exact (Hbody None (gprev_none false))]. }
    rewrite a_pipe. destruct timed as [[|]|]; cbn [app].
    + apply (ends_kw_sp _ false); [exact Hp | evaluate |].
      apply (ends_kw_sp _ false); [apply gprev_none | evaluate | exact (Hbang None (gprev_none false))].
    + apply (ends_kw_sp _ false); [exact Hp | evaluate | exact (Hbang None (gprev_none false))].
    + exact (Hbang prev Hp).
  - (* CmdsNil *)
    intros y _ Hy. apply ends_nil. exact Hy.
  - (* CmdsCons *)
    intros c IHc r IHr y Hok Hy. rewrite ok_cmdscons in Hok. apply andb_true_iff in Hok as [Hc Hr].
    rewrite a_cmdscons. cbn [app].
    apply ends_sp; [exact (proj1 (cmd_end_sep y Hy))|]. apply ends_tok; [evaluate | reflexivity |].
    destruct (f_pipe_sep pf); cbn [negb] in Hc; cbn [app].
    + apply ends_sp; [evaluate|]. eapply ends_app; [exact (IHc false None Hc (gprev_none false))|].
      intros y1. apply IHr. exact Hr.
    + eapply ends_app; [apply (IHc true _ Hc); right; right; split; reflexivity|].
      intros y1. apply IHr. exact Hr.
  - (* AndOr *)
    intros p IHp r IHr prev Hok Hp. rewrite ok_andor_eq in Hok. apply andb_true_iff in Hok as [H1 H2].
    rewrite a_andor_eq. eapply ends_app; [exact (IHp prev H1 Hp)|]. intros y. apply IHr. exact H2.
  - (* AoNil *)
    intros y _ Hy. apply ends_nil. exact Hy.
  - (* AoCons *)
    intros is_and p IHp r IHr y Hok Hy. rewrite ok_aocons in Hok. apply andb_true_iff in Hok as [H1 H2].
    rewrite a_aocons. cbn [app]. apply ends_sp; [exact (proj1 (cmd_end_sep y Hy))|].
    apply ends_tok; [destruct is_and; evaluate | reflexivity |]. apply ends_sp; [destruct is_and; evaluate|].
    eapply ends_app; [exact (IHp None H1 (gprev_none false))|]. intros y1. apply IHr. exact H2.
  - (* CList *)
    intros a IHa async r IHr prev Hok Hp. rewrite ok_clist_eq in Hok. apply andb_true_iff in Hok as [H1 H2].
    rewrite a_clist_eq. eapply ends_app; [exact (IHa prev H1 Hp)|]. intros y Hy. exact (IHr y async H2 Hy).
  - (* ClNil *)
    intros y async _ Hy. change (a_clrest pf ClNil) with (@nil atom). rewrite app_nil_r.
    destruct async; cbn [is_clnil a_sepop last_sync_r negb list_end].
    + apply ends_tok; [evaluate | apply cmd_end_amp; exact Hy | apply ends_nil; evaluate].
    + apply ends_nil. exact Hy.
  - (* ClCons *)
    intros a IHa async' r IHr y async Hok Hy. rewrite ok_clcons in Hok. apply andb_true_iff in Hok as [H1 H2].
    rewrite a_clcons. cbn [is_clnil a_sepop app].
    apply ends_tok; [destruct async; evaluate | destruct async; [apply cmd_end_amp | apply cmd_end_semi]; exact Hy |].
    apply ends_nl; [destruct async; evaluate|].
    eapply ends_app; [exact (IHa _ H1 (gprev_nl false))|]. intros y1 Hy1. exact (IHr y1 async' H2 Hy1).
  - (* ElNil *)
    intros y _ Hy. apply ends_nil. exact Hy.
  - (* ElIf *)
    intros c IHc t IHt r IHr y Hok Hy. rewrite ok_elif in Hok. apply andb_true_iff in Hok as [Hok Hr].
    apply andb_true_iff in Hok as [Hok Ht]. apply andb_true_iff in Hok as [Hc Hsync].
    rewrite a_elif. cbn [app]. apply ends_nl; [exact (proj2 (sep_after y Hy))|].
    apply (ends_kw_sp _ false); [apply gprev_nl | evaluate |].
    apply ends_cond_then; [exact (cond_ends c IHc Hc Hsync) | exact (body_ends t IHt Ht) |].
    intros y'. apply IHr. exact Hr.
  - (* ElElse *)
    intros t IHt r IHr y Hok Hy. rewrite ok_elelse in Hok. apply andb_true_iff in Hok as [Ht Hr].
    rewrite a_elelse. cbn [app]. apply ends_nl; [exact (proj2 (sep_after y Hy))|].
    apply ends_tok; [evaluate | apply nl_glue |]. apply ends_nl; [reflexivity|].
    eapply ends_app; [apply ends_bump; exact (body_ends t IHt Ht)|]. intros y'. apply IHr. exact Hr.
  - (* CiNil *)
    intros y _ Hy. apply ends_nil. exact Hy.
  - (* CiSome *)
    intros pats body IHb post r IHr y Hok Hy. rewrite ok_cisome in Hok. apply andb_true_iff in Hok as [Hok Hr].
    apply andb_true_iff in Hok as [Hok Hb]. apply andb_true_iff in Hok as [Hne Hp].
    rewrite a_cisome. cbn [app]. apply ends_case_head; [exact Hy | exact Hne | exact Hp |].
    eapply ends_app; [apply ends_bump; exact (body_ends body IHb Hb)|]. intros y1 Hy1.
    apply ends_case_post; [exact Hy1|]. apply IHr; [exact Hr | destruct post; evaluate].
  - (* CiNone *)
    intros pats post r IHr y Hok Hy. rewrite ok_cinone in Hok. apply andb_true_iff in Hok as [Hok Hr]. apply andb_true_iff in Hok as [Hne Hp].
    rewrite a_cinone. cbn [app]. apply ends_case_head; [exact Hy | exact Hne | exact Hp |].
    apply ends_case_post; [evaluate|]. apply IHr; [exact Hr | destruct post; evaluate].
Qed.

End Sep.

Theorem show_separates_gen pf c : ok_cmd pf false c = true -> tokenize (show pf c) = lexemes pf c.
Proof.
  intros Hok. destruct (printer_chains pf) as [Hc _].
  destruct (Hc c false None Hok (gprev_none false)) as [y [Hch Hy]].
  destruct (chain_sound _ _ _ Hch) as [H1 H2]; [destruct y; [reflexivity | reflexivity | discriminate]|].
  unfold show, lexemes. apply tokenize_render; assumption.
Qed.

Definition old_flags : pflags := {| f_redir_sep := false; f_pipe_sep := false; f_for_in_always := true |}.

(** non-empty simple commands, plain words, digit fds, conditions not ending in & *)
Definition wf (c : cmd) : bool := ok_cmd repaired_flags false c.
(** besides the commands that are not well-formed at all, the class of the findings
    KF-C14-redirect-list-glue / KF-C14-pipe-amp-glue: some compound command or function body
    carries a [risky] redirection list, or some command behind a bar is [amp_first] *)
Definition Known (c : cmd) : Prop := ok_cmd old_flags false c = false.

Theorem show_separates c : wf c = true -> tokenize (show repaired_flags c) = lexemes repaired_flags c.
Proof. apply show_separates_gen. Qed.

Theorem show_separates_outside_known c : ~ Known c -> tokenize (show old_flags c) = lexemes old_flags c.
Proof. unfold Known. intros H. apply show_separates_gen. destruct (ok_cmd old_flags false c); congruence. Qed.

Definition ex_word (s : string) : item := IWord (lit s).
Definition ex_redirs : cmd :=
  CCompound (KBrace (CList (AndOr (Pipe None false (CSimple [] (Some (lit "echo")) [ex_word "a"]) CmdsNil) AoNil) false ClNil))
            (Some [RFile None RWrite (lit "f"); RFile (Some (lit "2")) RDupOut (lit "1")]).
Definition ex_pipe : cmd :=
  CCompound (KBrace (CList (AndOr (Pipe None false (CSimple [] (Some (lit "a")) [])
                                      (CmdsCons (CSimple [IRedir (ROutErr (lit "f") false)] (Some (lit "b")) []) CmdsNil)) AoNil) false ClNil))
            None.

Theorem show_separates_refuted :
  exists c, wf c = true /\ tokenize (show old_flags c) <> lexemes old_flags c.
Proof. exists ex_redirs. split; [vm_compute; reflexivity | vm_compute; discriminate]. Qed.

Theorem show_pipe_refuted :
  exists c, wf c = true /\ tokenize (show old_flags c) <> lexemes old_flags c /\
            tokenize (show {| f_redir_sep := true; f_pipe_sep := false; f_for_in_always := true |} c)
            <> lexemes {| f_redir_sep := true; f_pipe_sep := false; f_for_in_always := true |} c.
Proof. exists ex_pipe. split; [vm_compute; reflexivity | split; vm_compute; discriminate]. Qed.

(** non-vacuity; [ex_plain] shows that the class Known is proper *)
Definition ex_plain : cmd :=
  CFunction (lit "f") (KBrace (CList (AndOr (Pipe None true (CCompound (KFor (lit "v") (Some [lit "a"; lit "7"])
     (CList (AndOr (Pipe None false (CSimple [] (Some (lit "echo")) [ex_word "x"; IRedir (RFile (Some (lit "2")) RDupOut (lit "1"))]) CmdsNil) AoNil) false ClNil))
     (Some [RFile None RWrite (lit "o")])) (CmdsCons (CSimple [] (Some (lit "cat")) []) CmdsNil)) AoNil) false ClNil)) None.
Example show_separates_examples :
  wf ex_redirs = true /\ wf ex_pipe = true /\ wf ex_plain = true /\ ok_cmd old_flags false ex_plain = true /\
  tokenize (show repaired_flags ex_redirs) = lexemes repaired_flags ex_redirs /\
  show old_flags ex_redirs = lit "{ " ++ [10] ++ lit "    echo a" ++ [10] ++ lit "}> f2>& 1" /\
  show repaired_flags ex_redirs = lit "{ " ++ [10] ++ lit "    echo a" ++ [10] ++ lit "} > f 2>& 1".
Proof. vm_compute. repeat split; reflexivity. Qed.

(** the printer as it is now (regenerated flags) *)
Lemma current_is_repaired : current_flags = repaired_flags.
Proof. reflexivity. Qed.

Theorem show_separates_current c : wf c = true -> tokenize (show current_flags c) = lexemes current_flags c.
Proof. rewrite current_is_repaired. apply show_separates. Qed.

