(** C14: token-level model of brush-parser/src/tokenizer.rs on the plain alphabet
    (operator characters, blanks, newline, characters that are none of these and not quoting /
    expansion / comment / extglob starters), and the generic separation theorem:
    a sequence of print atoms whose neighbours are compatible tokenizes back to its lexemes.

    Mirrors [next_token_until]: an operator in progress grows while [is_operator] accepts the
    extension and is delimited otherwise; a character that can start an operator delimits a
    word; blanks delimit and are dropped; newline is the operator [\n].  A word of digits
    delimited by < or > is an io-number (peg.rs [io_number]: digits, directly followed by a
    redirection operator, contiguous locations). *)
From BV Require Import Base.Prelude gen.C14TokTables.
Open Scope N_scope.

Definition mem (c : char) (l : list N) : bool := existsb (N.eqb c) l.
Definition operators : list str := posix_operators ++ ext_operators.
Definition is_operator (s : str) : bool := existsb (str_eqb s) operators.
Definition can_start_op (c : char) : bool := mem c op_start_chars.
Definition is_blank (c : char) : bool := mem c blank_chars.
Definition redir_start (c : char) : bool := (c =? 60) || (c =? 62).
Definition is_nil {A} (l : list A) : bool := match l with [] => true | _ => false end.
Definition all_digits (w : str) : bool := forallb is_digit w && negb (is_nil w).

(** characters of the domain of this model that may appear inside words *)
Definition plain (c : char) : bool :=
  negb (can_start_op c || is_blank c || mem c quoting_chars || mem c extglob_start_chars
        || (c =? 36) || (c =? 96) || (c =? 35) || (c =? 0)).

(** what the proofs need of a word character *)
Definition wordchar (c : char) : bool := negb (can_start_op c || is_blank c).

Inductive lexeme := LWord (w : str) | LOp (o : str) | LIoNum (n : str).
Inductive tstate := SNone | SWord (w : str) | SOp (o : str).

Definition emit_word (w : str) (c : char) : lexeme :=
  if all_digits w && redir_start c then LIoNum w else LWord w.

(** a character arriving when no token is in progress *)
Definition start (c : char) : tstate :=
  if can_start_op c then SOp [c] else if is_blank c then SNone else SWord [c].

Definition step (st : tstate) (c : char) : list lexeme * tstate :=
  match st with
  | SOp o => if is_operator (o ++ [c]) then ([], SOp (o ++ [c])) else ([LOp o], start c)
  | SWord w => if can_start_op c then ([emit_word w c], SOp [c])
               else if is_blank c then ([LWord w], SNone)
               else ([], SWord (w ++ [c]))
  | SNone => ([], start c)
  end.

Definition flush (st : tstate) : list lexeme :=
  match st with SNone => [] | SWord w => [LWord w] | SOp o => [LOp o] end.

Fixpoint run (st : tstate) (s : str) : list lexeme * tstate :=
  match s with
  | [] => ([], st)
  | c :: r => let '(o1, st1) := step st c in let '(o2, st2) := run st1 r in (o1 ++ o2, st2)
  end.

Definition tk (st : tstate) (s : str) : list lexeme := let '(o, st') := run st s in o ++ flush st'.
Definition tokenize (s : str) : list lexeme := tk SNone s.

Inductive atom := ATok (d : nat) (x : lexeme) | ASp (d : nat) | ANl.

Definition text (x : lexeme) : str := match x with LWord w => w | LOp o => o | LIoNum n => n end.
Definition spaces (n : nat) : str := repeat 32 n.
Definition ind (bol : bool) (d : nat) : str := if bol then spaces (display_indent * d) else [].

Fixpoint render (bol : bool) (l : list atom) : str :=
  match l with
  | [] => []
  | ATok d x :: r => ind bol d ++ text x ++ render false r
  | ASp d :: r => ind bol d ++ 32 :: render false r
  | ANl :: r => 10 :: render true r
  end.

Definition NLOP : lexeme := LOp [10].
Definition toks_of (a : atom) : list lexeme :=
  match a with ATok _ x => [x] | ASp _ => [] | ANl => [NLOP] end.
Definition toks (l : list atom) : list lexeme := flat_map toks_of l.
Definition pend (a : atom) : option lexeme :=
  match a with ATok _ x => Some x | ASp _ => None | ANl => Some NLOP end.

(** validity of a lexeme; the here-document operators are outside the model *)
Definition heredoc_op (o : str) : bool := str_eqb o [60; 60] || str_eqb o [60; 60; 45].
Definition lex_ok (x : lexeme) : bool :=
  match x with
  | LWord w => negb (is_nil w) && forallb wordchar w
  | LIoNum n => all_digits n
  | LOp o => is_operator o && negb (heredoc_op o)
  end.
Definition atom_ok (a : atom) : bool := match a with ATok _ x => lex_ok x | _ => true end.

Definition hd0 (s : str) : char := match s with c :: _ => c | [] => 0 end.

(** may [x] be written directly behind the pending lexeme [prev]? *)
Definition glue_ok (prev : option lexeme) (x : lexeme) : bool :=
  match prev with
  | None => true
  | Some (LWord w) => match x with LOp o => negb (all_digits w && redir_start (hd0 o)) | _ => false end
  | Some (LIoNum n) => match x with LOp o => redir_start (hd0 o) | _ => false end
  | Some (LOp p) => negb (is_operator (p ++ [hd0 (text x)]))
  end.
(** may a blank / newline [c] follow the pending lexeme? *)
Definition sep_ok (prev : option lexeme) (c : char) : bool :=
  match prev with
  | None => true
  | Some (LWord _) => true
  | Some (LIoNum _) => false
  | Some (LOp p) => negb (is_operator (p ++ [c]))
  end.
Definition junction_ok (prev : option lexeme) (a : atom) : bool :=
  match a with ATok _ x => glue_ok prev x | ASp _ => sep_ok prev 32 | ANl => sep_ok prev 10 end.

Fixpoint chain_ok (prev : option lexeme) (l : list atom) : bool :=
  match l with
  | [] => match prev with Some (LIoNum _) => false | _ => true end
  | a :: r => junction_ok prev a && chain_ok (pend a) r
  end.

(** facts about the regenerated tables, re-checked whenever the tables change *)

Definition builds (o : str) : bool :=
  match run SNone o with ([], SOp o') => str_eqb o o' | _ => false end.
Lemma operators_build : forallb builds operators = true.
Proof. vm_compute. reflexivity. Qed.
Lemma operators_start : forallb (fun o => can_start_op (hd0 o) && negb (is_nil o)) operators = true.
Proof. vm_compute. reflexivity. Qed.
Lemma nl_inert_table : forallb (fun o => negb (starts_with [10] o && negb (str_eqb o [10]))) operators = true.
Proof. vm_compute. reflexivity. Qed.
Lemma digits_wordchar : forallb wordchar [48;49;50;51;52;53;54;55;56;57] = true.
Proof. vm_compute. reflexivity. Qed.
Lemma space_newline_class : is_blank 32 = true /\ can_start_op 32 = false /\ can_start_op 10 = true.
Proof. vm_compute. repeat split; reflexivity. Qed.

(** the tokenizer state with [prev] pending, and what it emits when [prev] is delimited *)
Definition st_of (prev : option lexeme) : tstate :=
  match prev with
  | None => SNone
  | Some (LWord w) => SWord w
  | Some (LIoNum n) => SWord n
  | Some (LOp o) => SOp o
  end.
Definition olist (prev : option lexeme) : list lexeme := match prev with Some p => [p] | None => [] end.

Definition prev_ok (prev : option lexeme) : bool := match prev with Some p => lex_ok p | None => true end.

Lemma toks_app l1 l2 : toks (l1 ++ l2) = toks l1 ++ toks l2.
Proof. unfold toks. apply flat_map_app. Qed.

Lemma run_app st s1 s2 :
  run st (s1 ++ s2) = let '(o1, st1) := run st s1 in let '(o2, st2) := run st1 s2 in (o1 ++ o2, st2).
Proof.
  revert st. induction s1 as [|c r IH]; intros st.
  - cbn [app run]. destruct (run st s2). reflexivity.
  - cbn [app run]. destruct (step st c) as [o1 st1]. rewrite IH.
    destruct (run st1 r) as [o2 st2]. destruct (run st2 s2) as [o3 st3]. rewrite app_assoc. reflexivity.
Qed.

Lemma tk_app st s1 s2 : tk st (s1 ++ s2) = fst (run st s1) ++ tk (snd (run st s1)) s2.
Proof.
  unfold tk. rewrite run_app. destruct (run st s1) as [o1 st1]. cbn [fst snd].
  destruct (run st1 s2) as [o2 st2]. rewrite app_assoc. reflexivity.
Qed.

Lemma wordchar_not_special c : wordchar c = true -> can_start_op c = false /\ is_blank c = false.
Proof.
  unfold wordchar. intros H. apply negb_true_iff in H. apply orb_false_iff in H. exact H.
Qed.

Lemma plain_wordchar c : plain c = true -> wordchar c = true.
Proof.
  unfold plain, wordchar. intros H. apply negb_true_iff in H.
  do 6 (apply orb_false_iff in H; destruct H as [H _]).
  rewrite H. reflexivity.
Qed.

Lemma run_word_ext u w : forallb wordchar w = true -> run (SWord u) w = ([], SWord (u ++ w)).
Proof.
  revert u. induction w as [|c r IH]; intros u H.
  - rewrite app_nil_r. reflexivity.
  - cbn [forallb] in H. apply andb_true_iff in H as [Hc Hr].
    destruct (wordchar_not_special c Hc) as [H1 H2].
    cbn [run step]. rewrite H1, H2, (IH _ Hr), <- app_assoc. reflexivity.
Qed.

Lemma run_word_none w : negb (is_nil w) = true -> forallb wordchar w = true -> run SNone w = ([], SWord w).
Proof.
  destruct w as [|c r]; [discriminate|]. intros _ H.
  cbn [forallb] in H. apply andb_true_iff in H as [Hc Hr].
  destruct (wordchar_not_special c Hc) as [H1 H2].
  cbn [run step]. unfold start. rewrite H1, H2, (run_word_ext [c] r Hr). reflexivity.
Qed.

Lemma is_operator_In o : is_operator o = true -> In o operators.
Proof.
  unfold is_operator. intros H. apply existsb_exists in H. destruct H as [x [Hin Heq]].
  apply str_eqb_eq in Heq. subst. exact Hin.
Qed.

Lemma run_op_none o : is_operator o = true -> run SNone o = ([], SOp o).
Proof.
  intros H. apply is_operator_In in H.
  pose proof operators_build as Hall. rewrite forallb_forall in Hall. specialize (Hall o H).
  unfold builds in Hall. destruct (run SNone o) as [out st]. destruct out; [|discriminate].
  destruct st; try discriminate. apply str_eqb_eq in Hall. subst. reflexivity.
Qed.

Lemma op_shape o : is_operator o = true -> exists c r, o = c :: r /\ can_start_op c = true.
Proof.
  intros H. apply is_operator_In in H.
  pose proof operators_start as Hall. rewrite forallb_forall in Hall. specialize (Hall o H).
  apply andb_true_iff in Hall as [H1 H2]. destruct o as [|c r]; [discriminate|].
  exists c, r. split; [reflexivity | exact H1].
Qed.

Lemma all_digits_wordchar n : all_digits n = true -> negb (is_nil n) = true /\ forallb wordchar n = true.
Proof.
  unfold all_digits. intros H. apply andb_true_iff in H as [Hd Hn]. split; [exact Hn|].
  clear Hn. induction n as [|c r IH]; [reflexivity|].
  cbn [forallb] in *. apply andb_true_iff in Hd as [Hc Hr]. rewrite (IH Hr), andb_true_r.
  unfold is_digit in Hc. apply andb_true_iff in Hc as [H1 H2].
  apply N.leb_le in H1, H2.
  pose proof digits_wordchar as Hall. rewrite forallb_forall in Hall. apply Hall.
  assert (Hin : In (N.to_nat c) (seq 48 10)) by (apply in_seq; lia).
  apply (in_map N.of_nat) in Hin. rewrite N2Nat.id in Hin. exact Hin.
Qed.

Lemma lex_word_like x :
  lex_ok x = true -> match x with LOp _ => True | _ => negb (is_nil (text x)) = true /\ forallb wordchar (text x) = true end.
Proof.
  destruct x as [w|o|n]; cbn [lex_ok text]; intros H; [|exact I|].
  - apply andb_true_iff in H. exact H.
  - apply all_digits_wordchar. exact H.
Qed.

Lemma run_text_none x : lex_ok x = true -> run SNone (text x) = ([], st_of (Some x)).
Proof.
  intros H. pose proof (lex_word_like x H) as Hw. destruct x as [w|o|n]; cbn [text st_of] in *.
  - destruct Hw. apply run_word_none; assumption.
  - cbn [lex_ok] in H. apply andb_true_iff in H as [H _]. apply run_op_none. exact H.
  - destruct Hw. apply run_word_none; assumption.
Qed.

Lemma text_cons x : lex_ok x = true ->
  exists c r, text x = c :: r /\ match x with LOp _ => can_start_op c = true | _ => True end.
Proof.
  intros H. pose proof (lex_word_like x H) as Hw. destruct x as [w|o|n]; cbn [text].
  - destruct w as [|c r]; [destruct Hw; discriminate|]. exists c, r. split; [reflexivity | exact I].
  - cbn [lex_ok] in H. apply andb_true_iff in H as [H _]. exact (op_shape o H).
  - destruct n as [|c r]; [destruct Hw; discriminate|]. exists c, r. split; [reflexivity | exact I].
Qed.

Lemma run_text_glued p x :
  lex_ok p = true -> lex_ok x = true -> glue_ok (Some p) x = true ->
  run (st_of (Some p)) (text x) = ([p], st_of (Some x)).
Proof.
  intros Hp Hx Hg. pose proof (run_text_none x Hx) as Hr. destruct (text_cons x Hx) as [c [r [Et Hc]]].
  (* from the empty state the first step emits nothing and moves to [start c]; it suffices that
     with [p] pending it emits [p] and moves there too *)
  assert (Hstep : step (st_of (Some p)) c = ([p], start c)).
  { destruct p as [w|q|n]; cbn [st_of glue_ok step] in *.
    - (* word then operator *)
      destruct x as [w'|o|n']; try discriminate. cbn [text] in Et. subst o. cbn [hd0] in Hg.
      apply negb_true_iff in Hg. unfold start, emit_word. rewrite Hc, Hg. reflexivity.
    - (* operator then anything *)
      rewrite Et in Hg. cbn [hd0] in Hg. apply negb_true_iff in Hg. rewrite Hg. reflexivity.
    - (* io-number then redirection operator *)
      destruct x as [w'|o|n']; try discriminate. cbn [text] in Et. subst o. cbn [hd0] in Hg.
      cbn [lex_ok] in Hp. unfold start, emit_word. rewrite Hc, Hp, Hg. reflexivity. }
  rewrite Et in *. cbn [run step] in *. rewrite Hstep. destruct (run (start c) r) as [o2 st2].
  inversion Hr. reflexivity.
Qed.

Lemma run_spaces_none n : run SNone (spaces n) = ([], SNone).
Proof.
  induction n as [|n IH]; [reflexivity|].
  cbn [spaces repeat run step]. unfold start. destruct space_newline_class as [Hb [Hs _]]. rewrite Hs, Hb.
  fold (spaces n). rewrite IH. reflexivity.
Qed.

Lemma step_sep_blank p : sep_ok (Some p) 32 = true -> step (st_of (Some p)) 32 = ([p], SNone).
Proof.
  destruct space_newline_class as [Hb [Hs _]].
  destruct p as [w|q|n]; cbn [st_of sep_ok step]; intros H; try discriminate.
  - rewrite Hs, Hb. reflexivity.
  - apply negb_true_iff in H. rewrite H. unfold start. rewrite Hs, Hb. reflexivity.
Qed.

Lemma step_sep_nl p : sep_ok (Some p) 10 = true -> step (st_of (Some p)) 10 = ([p], SOp [10]).
Proof.
  destruct space_newline_class as [_ [_ Hn]].
  destruct p as [w|q|n]; cbn [st_of sep_ok step]; intros H; try discriminate.
  - rewrite Hn. unfold emit_word, redir_start. cbn [N.eqb Pos.eqb orb]. rewrite andb_false_r. reflexivity.
  - apply negb_true_iff in H. rewrite H. unfold start. rewrite Hn. reflexivity.
Qed.

Lemma nl_inert c : is_operator [10; c] = false.
Proof.
  destruct (is_operator [10; c]) eqn:E; [|reflexivity]. exfalso.
  apply is_operator_In in E. pose proof nl_inert_table as Hall. rewrite forallb_forall in Hall.
  specialize (Hall _ E). cbn [starts_with] in Hall. cbn [N.eqb Pos.eqb andb str_eqb] in Hall.
  discriminate.
Qed.

Lemma run_spaces_pending p n :
  sep_ok (Some p) 32 = true -> run (st_of (Some p)) (spaces (S n)) = ([p], SNone).
Proof.
  intros Hs. cbn [spaces repeat run]. rewrite (step_sep_blank p Hs). fold (spaces n).
  rewrite run_spaces_none. reflexivity.
Qed.

Lemma nl_glue x : glue_ok (Some NLOP) x = true.
Proof. unfold glue_ok, NLOP. cbn [app]. rewrite nl_inert. reflexivity. Qed.
Lemma nl_sep c : sep_ok (Some NLOP) c = true.
Proof. unfold sep_ok, NLOP. cbn [app]. rewrite nl_inert. reflexivity. Qed.
Lemma nl_lex_ok : lex_ok NLOP = true.
Proof. vm_compute. reflexivity. Qed.

Lemma run_ind_text prev bol d x :
  prev_ok prev = true -> lex_ok x = true -> glue_ok prev x = true ->
  (bol = true -> sep_ok prev 32 = true) ->
  run (st_of prev) (ind bol d ++ text x) = (olist prev, st_of (Some x)).
Proof.
  intros Hp Hx Hg Hb.
  assert (H0 : run (st_of prev) (text x) = (olist prev, st_of (Some x))).
  { destruct prev as [p|]; [apply run_text_glued | apply run_text_none]; assumption. }
  unfold ind. destruct bol; [|exact H0]. destruct (display_indent * d)%nat as [|k]; [exact H0|].
  rewrite run_app. destruct prev as [p|]; cbn [olist].
  - rewrite (run_spaces_pending p k (Hb eq_refl)), (run_text_none x Hx). reflexivity.
  - cbn [st_of]. rewrite run_spaces_none, (run_text_none x Hx). reflexivity.
Qed.

Lemma run_ind_blank prev bol d :
  sep_ok prev 32 = true -> run (st_of prev) (ind bol d ++ [32]) = (olist prev, SNone).
Proof.
  intros Hs.
  assert (E : exists k, ind bol d ++ [32] = spaces (S k)).
  { unfold ind, spaces. destruct bol.
    - exists (display_indent * d)%nat. symmetry. apply repeat_cons.
    - exists 0%nat. reflexivity. }
  destruct E as [k E]. rewrite E. destruct prev as [p|]; cbn [olist].
  - apply run_spaces_pending. exact Hs.
  - apply run_spaces_none.
Qed.

Theorem tk_render l : forall prev bol,
  forallb atom_ok l = true -> prev_ok prev = true ->
  (bol = true -> sep_ok prev 32 = true) ->
  chain_ok prev l = true ->
  tk (st_of prev) (render bol l) = olist prev ++ toks l.
Proof.
  induction l as [|a r IH]; intros prev bol Hok Hp Hb Hc.
  - cbn [render toks flat_map]. rewrite app_nil_r. unfold tk. cbn [run app].
    destruct prev as [[w|o|n]|]; cbn [st_of flush olist chain_ok] in *; try reflexivity. discriminate.
  - cbn [forallb] in Hok. apply andb_true_iff in Hok as [Ha Hr].
    cbn [chain_ok] in Hc. apply andb_true_iff in Hc as [Hj Hc].
    destruct a as [d x|d|]; cbn [render toks flat_map toks_of pend junction_ok atom_ok] in *.
    + rewrite (app_assoc (ind bol d) (text x) (render false r)), tk_app, (run_ind_text prev bol d x Hp Ha Hj Hb). cbn [fst snd].
      rewrite (IH (Some x) false Hr Ha) by (discriminate || assumption).
      reflexivity.
    + replace (ind bol d ++ 32 :: render false r) with ((ind bol d ++ [32]) ++ render false r)
        by (rewrite <- app_assoc; reflexivity).
      rewrite tk_app, (run_ind_blank prev bol d Hj). cbn [fst snd].
      change SNone with (st_of None).
      rewrite (IH None false Hr eq_refl) by (discriminate || assumption).
      reflexivity.
    + change (10 :: render true r) with ([10] ++ render true r). rewrite tk_app.
      assert (Hs : run (st_of prev) [10] = (olist prev, st_of (Some NLOP))).
      { destruct prev as [p|]; cbn [olist].
        - cbn [run]. rewrite (step_sep_nl p Hj). reflexivity.
        - cbn [st_of run step]. unfold start. destruct space_newline_class as [_ [_ Hn]]. rewrite Hn. reflexivity. }
      rewrite Hs. cbn [fst snd].
      rewrite (IH (Some NLOP) true Hr nl_lex_ok (fun _ => nl_sep 32) Hc).
      reflexivity.
Qed.

Corollary tokenize_render l :
  forallb atom_ok l = true -> chain_ok None l = true -> tokenize (render true l) = toks l.
Proof.
  intros Hok Hc. unfold tokenize. change SNone with (st_of None).
  rewrite (tk_render l None true Hok eq_refl (fun _ => eq_refl) Hc). reflexivity.
Qed.
