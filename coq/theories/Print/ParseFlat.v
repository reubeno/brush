(** C14, parse round trip on a sub-grammar (partial): a recursive-descent parser over lexemes for
    *flat* function definitions - [name () { list }] whose list items are and-or lists of
    pipelines (with !) of simple commands (words and file / dup / &> / here-string redirections,
    redirections allowed before the command word) separated by ; & and newlines - and the theorem
    that parsing what the printer prints gives back the AST:

      parse (tokenize (show pf c)) = Some c

    for every such definition that is well-formed for the printer flags [pf] (needed only to get from
    the text back to the lexemes).  Compound commands inside the body are outside this parser model
    (the real parser is exercised on them by execution, see props/c14.py). *)
From Coq Require Import String.
From BV Require Import Base.Prelude Base.Codec Print.Tokenize Print.Show Print.Separation.
Open Scope N_scope.

Definition is_lit (s : str) (t : string) : bool := str_eqb s (lit t).
Definition is_nlop (o : str) : bool := str_eqb o [10].

Definition kind_of (o : str) : option rkind :=
  if is_lit o "<" then Some RRead else if is_lit o ">" then Some RWrite
  else if is_lit o ">>" then Some RAppend else if is_lit o "<>" then Some RReadWrite
  else if is_lit o ">|" then Some RClobber else if is_lit o "<&" then Some RDupIn
  else if is_lit o ">&" then Some RDupOut else None.

Definition mk_redir (fd : option str) (o t : str) : option redir :=
  match kind_of o with
  | Some k => Some (RFile fd k t)
  | None =>
      if is_lit o "<<<" then Some (RHereStr fd t)
      else match fd with
           | None => if is_lit o "&>" then Some (ROutErr t false)
                     else if is_lit o "&>>" then Some (ROutErr t true) else None
           | Some _ => None
           end
  end.

Fixpoint p_items (l : list lexeme) : list item * list lexeme :=
  match l with
  | LWord w :: r => let '(is, r') := p_items r in (IWord w :: is, r')
  | LIoNum n :: LOp o :: LWord t :: r =>
      match mk_redir (Some n) o t with
      | Some rd => let '(is, r') := p_items r in (IRedir rd :: is, r')
      | None => ([], l)
      end
  | LOp o :: LWord t :: r =>
      match mk_redir None o t with
      | Some rd => let '(is, r') := p_items r in (IRedir rd :: is, r')
      | None => ([], l)
      end
  | _ => ([], l)
  end.

Fixpoint split_pre (is : list item) : list item * list item :=
  match is with
  | IRedir r :: t => let '(a, b) := split_pre t in (IRedir r :: a, b)
  | _ => ([], is)
  end.

Definition mk_simple (is : list item) : option cmd :=
  let '(pre, rest) := split_pre is in
  match rest with
  | [] => if is_nil pre then None else Some (CSimple pre None [])
  | IWord w :: suf => Some (CSimple pre (Some w) suf)
  | IRedir _ :: _ => None
  end.

Definition p_simple (l : list lexeme) : option (cmd * list lexeme) :=
  let '(is, r) := p_items l in
  match mk_simple is with Some c => Some (c, r) | None => None end.

Fixpoint p_cmds (fuel : nat) (l : list lexeme) : option (cmds * list lexeme) :=
  match fuel with O => None | S f =>
  match l with
  | LOp o :: r =>
      if is_lit o "|" then
        match p_simple r with
        | Some (c, r1) => match p_cmds f r1 with Some (cs, r2) => Some (CmdsCons c cs, r2) | None => None end
        | None => None
        end
      else Some (CmdsNil, l)
  | _ => Some (CmdsNil, l)
  end end.

Definition p_pipeline (fuel : nat) (l : list lexeme) : option (pipeline * list lexeme) :=
  let '(bang, l1) := match l with
                     | LWord w :: r => if is_lit w "!" then (true, r) else (false, l)
                     | _ => (false, l)
                     end in
  match p_simple l1 with
  | Some (c, r1) => match p_cmds fuel r1 with Some (cs, r2) => Some (Pipe None bang c cs, r2) | None => None end
  | None => None
  end.

Fixpoint p_aorest (fuel : nat) (l : list lexeme) : option (aorest * list lexeme) :=
  match fuel with O => None | S f =>
  match l with
  | LOp o :: r =>
      if is_lit o "&&" || is_lit o "||" then
        match p_pipeline f r with
        | Some (p, r1) => match p_aorest f r1 with Some (ar, r2) => Some (AoCons (is_lit o "&&") p ar, r2) | None => None end
        | None => None
        end
      else Some (AoNil, l)
  | _ => Some (AoNil, l)
  end end.

Definition p_andor (fuel : nat) (l : list lexeme) : option (andor * list lexeme) :=
  match p_pipeline fuel l with
  | Some (p, r1) => match p_aorest fuel r1 with Some (ar, r2) => Some (AndOr p ar, r2) | None => None end
  | None => None
  end.

Definition closes (l : list lexeme) : bool :=
  match l with LOp nl :: LWord cb :: _ => is_nlop nl && is_lit cb "}" | _ => false end.

(** after an and-or list: its separator and the rest of the list.  The list of a brace group ends
    before [newline }] *)
Fixpoint p_seprest (fuel : nat) (l : list lexeme) : option (bool * clrest * list lexeme) :=
  match fuel with O => None | S f =>
  let continue_ (async : bool) (r : list lexeme) :=
    match r with
    | LOp nl :: r' =>
        if is_nlop nl then
          match p_andor f r' with
          | Some (a, r1) =>
              match p_seprest f r1 with
              | Some (async', cr, r2) => Some (async, ClCons a async' cr, r2)
              | None => None
              end
          | None => None
          end
        else None
    | _ => None
    end in
  match l with
  | LOp o :: r =>
      if is_lit o ";" then continue_ false r
      else if is_lit o "&" then (if closes r then Some (true, ClNil, r) else continue_ true r)
      else Some (false, ClNil, l)
  | _ => Some (false, ClNil, l)
  end end.

Definition p_clist (fuel : nat) (l : list lexeme) : option (clist * list lexeme) :=
  match p_andor fuel l with
  | Some (a, r1) => match p_seprest fuel r1 with Some (async, cr, r2) => Some (CList a async cr, r2) | None => None end
  | None => None
  end.

(** name ( ) newline { newline list newline } *)
Definition p_function (l : list lexeme) : option cmd :=
  match l with
  | LWord name :: LOp o1 :: LOp o2 :: LOp n1 :: LWord ob :: LOp n2 :: r =>
      if is_lit o1 "(" && is_lit o2 ")" && is_nlop n1 && is_lit ob "{" && is_nlop n2 then
        match p_clist (S (length r)) r with
        | Some (cl, [LOp n3; LWord cb]) => if is_nlop n3 && is_lit cb "}" then Some (CFunction name (KBrace cl) None) else None
        | _ => None
        end
      else None
  | _ => None
  end.

Definition parse (l : list lexeme) : option cmd := p_function l.

Definition is_redir_item (i : item) : bool := match i with IRedir _ => true | IWord _ => false end.
Definition reserved_words : list string :=
  ["!"; "{"; "}"; "if"; "then"; "else"; "elif"; "fi"; "do"; "done"; "case"; "esac"; "while"; "until";
   "for"; "in"; "function"; "time"; "select"; "coproc"; "[["; "]]"]%string.
(** a command word: plain, and not a token the parsers treat specially in command position *)
Definition cmd_word_ok (w : str) : bool :=
  word_ok w && negb (existsb (is_lit w) reserved_words) && negb (existsb (N.eqb 61) w).

Definition flat_simple (c : cmd) : bool :=
  match c with
  | CSimple pre (Some w) suf => forallb is_redir_item pre && cmd_word_ok w
  | CSimple pre None suf => forallb is_redir_item pre && negb (is_nil pre) && is_nil suf
  | _ => false
  end.
Fixpoint flat_cmds (r : cmds) : bool :=
  match r with CmdsNil => true | CmdsCons c r' => flat_simple c && flat_cmds r' end.
Definition flat_pipeline (p : pipeline) : bool :=
  match p with Pipe None _ c r => flat_simple c && flat_cmds r | _ => false end.
Fixpoint flat_aorest (r : aorest) : bool :=
  match r with AoNil => true | AoCons _ p r' => flat_pipeline p && flat_aorest r' end.
Definition flat_andor (a : andor) : bool := match a with AndOr p r => flat_pipeline p && flat_aorest r end.
Fixpoint flat_clrest (r : clrest) : bool :=
  match r with ClNil => true | ClCons a _ r' => flat_andor a && flat_clrest r' end.
Definition flat_clist (l : clist) : bool := match l with CList a _ r => flat_andor a && flat_clrest r end.
Definition flat_fun (c : cmd) : bool :=
  match c with CFunction _ (KBrace cl) None => flat_clist cl | _ => false end.

Lemma toks_bump l : toks (bump l) = toks l.
Proof.
  induction l as [|a r IH]; [reflexivity|]. cbn [bump map toks flat_map]. fold (bump r). fold (toks (bump r)). fold (toks r).
  rewrite IH. destruct a; reflexivity.
Qed.

Definition item_toks (i : item) : list lexeme := toks (a_item i).

Lemma toks_sep_by items : toks (sep_by a_item items) = flat_map item_toks items.
Proof.
  induction items as [|i r IH]; [reflexivity|].
  destruct r as [|j r'].
  - cbn [sep_by flat_map]. rewrite app_nil_r. reflexivity.
  - rewrite sep_by_cons, toks_app. cbn [flat_map]. fold (item_toks i). f_equal.
    change (toks (SP :: sep_by a_item (j :: r'))) with (toks (sep_by a_item (j :: r'))). exact IH.
Qed.

(** what may follow a piece of the grammar: nothing, or an operator that is no redirection and none
    of [ops] (the operators that would continue the piece) *)
Definition stop_op (o : str) : bool := match mk_redir None o [] with None => true | Some _ => false end.
Definition stops (ops : list string) (rest : list lexeme) : Prop :=
  match rest with
  | [] => True
  | LOp o :: _ => stop_op o = true /\ existsb (is_lit o) ops = false
  | _ => False
  end.

Lemma stops_tl s ops rest : stops (s :: ops) rest -> stops ops rest.
Proof.
  destruct rest as [|[w|o|n] t]; cbn [stops existsb]; try exact (fun H => H).
  intros [H1 H2]. apply orb_false_iff in H2 as [_ H2]. split; assumption.
Qed.
Lemma stops_hd s ops o t : stops (s :: ops) (LOp o :: t) -> is_lit o s = false.
Proof. cbn [stops existsb]. intros [_ H]. apply orb_false_iff in H as [H _]. exact H. Qed.

Lemma mk_redir_none o t : stop_op o = true -> mk_redir None o t = None.
Proof.
  unfold stop_op, mk_redir. destruct (kind_of o); [discriminate|].
  destruct (is_lit o "<<<"); [discriminate|]. destruct (is_lit o "&>"); [discriminate|].
  destruct (is_lit o "&>>"); [discriminate | reflexivity].
Qed.

Lemma p_items_stop rest : stops [] rest -> p_items rest = ([], rest).
Proof.
  destruct rest as [|[w|o|n] r]; cbn [stops]; intros H; try contradiction; [reflexivity|].
  cbn [p_items]. destruct r as [|[t|o2|n2] r']; try reflexivity.
  rewrite (mk_redir_none o t (proj1 H)). reflexivity.
Qed.

Lemma mk_redir_file fd k t : mk_redir fd (kind_text k) t = Some (RFile fd k t).
Proof. destruct k; reflexivity. Qed.
Lemma mk_redir_here fd t : mk_redir fd (lit "<<<") t = Some (RHereStr fd t).
Proof. reflexivity. Qed.
Lemma mk_redir_amp app t : mk_redir None (amp_text app) t = Some (ROutErr t app).
Proof. destruct app; reflexivity. Qed.

Lemma p_items_item i l :
  p_items (item_toks i ++ l) = let '(is, r) := p_items l in (i :: is, r).
Proof.
  destruct i as [[[n|] k t | w ap | [n|] w] | w]; unfold item_toks;
    cbn [a_item a_redir fd_atoms toks flat_map toks_of app]; unfold OP, SP, Wd;
    cbn [toks_of flat_map app p_items].
  - rewrite mk_redir_file. reflexivity.
  - rewrite mk_redir_file. reflexivity.
  - destruct ap; reflexivity.
  - rewrite mk_redir_here. reflexivity.
  - rewrite mk_redir_here. reflexivity.
  - reflexivity.
Qed.

Lemma p_items_lexemes items rest : stops [] rest ->
  p_items (flat_map item_toks items ++ rest) = (items, rest).
Proof.
  intros Hf. induction items as [|i r IH].
  - apply p_items_stop. exact Hf.
  - cbn [flat_map]. rewrite <- app_assoc, (p_items_item i _), IH. reflexivity.
Qed.

Lemma split_pre_redirs pre rest : forallb is_redir_item pre = true ->
  (match rest with IRedir _ :: _ => False | _ => True end) ->
  split_pre (pre ++ rest) = (pre, rest).
Proof.
  induction pre as [|i r IH]; intros Hp Hr.
  - cbn [app]. destruct rest as [|[x|w] t]; [reflexivity | contradiction | reflexivity].
  - cbn [forallb] in Hp. apply andb_true_iff in Hp as [Hi Hp].
    destruct i as [x|w]; [|discriminate]. cbn [app split_pre]. rewrite (IH Hp Hr). reflexivity.
Qed.

Definition RBRACE : lexeme := LWord (lit "}").

(** what the parser lemmas need of the first lexeme of a simple command: if a word, it is a command
    word, which [p_pipeline] does not take for ! nor [closes] for } (the other reserved words and the
    = test of [cmd_word_ok] play no part in the proofs) *)
Definition first_ok (x : lexeme) : bool := match x with LWord w => cmd_word_ok w | _ => true end.

Lemma redir_toks_first r : exists x rest, toks (a_redir r) = x :: rest /\ first_ok x = true.
Proof. destruct r as [[n|] k t | w ap | [n|] w]; eexists; eexists; split; reflexivity. Qed.

Lemma first_ok_word w : first_ok (LWord w) = true -> is_lit w "!" = false /\ is_lit w "}" = false.
Proof.
  cbn [first_ok]. unfold cmd_word_ok. intros H. apply andb_true_iff in H as [H _]. apply andb_true_iff in H as [_ H].
  apply negb_true_iff in H.
  assert (Hn : forall s, In s reserved_words -> is_lit w s = false).
  { intros s Hs. destruct (is_lit w s) eqn:E; [|reflexivity].
    rewrite <- H. symmetry. apply existsb_exists. exists s. split; assumption. }
  split; apply Hn; [left | right; right; left]; reflexivity.
Qed.

Lemma p_pipeline_bang fuel l c r1 cs r2 :
  p_simple l = Some (c, r1) -> p_cmds fuel r1 = Some (cs, r2) ->
  p_pipeline fuel (LWord (lit "!") :: l) = Some (Pipe None true c cs, r2).
Proof. intros H1 H2. unfold p_pipeline. change (is_lit (lit "!") "!") with true. cbn iota. rewrite H1, H2. reflexivity. Qed.
Arguments p_pipeline_bang {fuel l c r1 cs r2}.
Lemma p_pipeline_plain fuel x tl c r1 cs r2 :
  first_ok x = true -> p_simple (x :: tl) = Some (c, r1) -> p_cmds fuel r1 = Some (cs, r2) ->
  p_pipeline fuel (x :: tl) = Some (Pipe None false c cs, r2).
Proof.
  intros Hx H1 H2. unfold p_pipeline. destruct x as [w|o|n].
  - destruct (first_ok_word w Hx) as [Hb _]. rewrite Hb, H1, H2. reflexivity.
  - rewrite H1, H2. reflexivity.
  - rewrite H1, H2. reflexivity.
Qed.
Arguments p_pipeline_plain {fuel x tl c r1 cs r2}.

Definition pipeline_stops : list string := ["|"%string].
Definition andor_stops : list string := ["&&"; "||"; "|"]%string.

Section Flat.
Variable pf : pflags.

Lemma p_simple_lexemes c rest : flat_simple c = true -> stops [] rest ->
  p_simple (toks (a_cmd pf c) ++ rest) = Some (c, rest).
Proof.
  intros Hf Hfo. destruct c as [pre name suf | |]; try discriminate.
  rewrite a_csimple. unfold a_simple, p_simple. rewrite toks_sep_by, (p_items_lexemes _ rest Hfo).
  unfold simple_items, mk_simple. cbn [flat_simple] in Hf. destruct name as [w|].
  - apply andb_true_iff in Hf as [Hpre _].
    cbn [app]. rewrite (split_pre_redirs pre (IWord w :: suf) Hpre I). reflexivity.
  - apply andb_true_iff in Hf as [Hf Hsuf]. apply andb_true_iff in Hf as [Hpre Hne].
    destruct suf; [|discriminate]. cbn [app]. rewrite app_nil_r.
    rewrite <- (app_nil_r pre) at 1. rewrite (split_pre_redirs pre [] Hpre I).
    destruct pre; [discriminate | reflexivity].
Qed.

Lemma simple_first c : flat_simple c = true -> exists x r, toks (a_cmd pf c) = x :: r /\ first_ok x = true.
Proof.
  destruct c as [pre name suf| |]; try discriminate. cbn [flat_simple]. intros H.
  rewrite a_csimple. unfold a_simple. rewrite toks_sep_by. unfold simple_items.
  destruct pre as [|[r|w0] pre'].
  - destruct name as [w|]; [|cbn [forallb is_nil negb andb] in H; discriminate].
    apply andb_true_iff in H as [_ Hw]. exists (LWord w). eexists. split; [reflexivity | exact Hw].
  - cbn [app flat_map]. unfold item_toks at 1. cbn [a_item].
    destruct (redir_toks_first r) as [x [rest [E Hx]]]. rewrite E. cbn [app].
    eexists; eexists; split; [reflexivity | exact Hx].
  - destruct name; cbn [forallb is_redir_item andb] in H; discriminate.
Qed.

Lemma toks_cmdscons c r : toks (a_cmds pf (CmdsCons c r)) = LOp (lit "|") :: toks (a_cmd pf c) ++ toks (a_cmds pf r).
Proof. rewrite a_cmdscons, !toks_app. destruct (f_pipe_sep pf); reflexivity. Qed.

Lemma stops_cmds r rest : stops pipeline_stops rest -> stops [] (toks (a_cmds pf r) ++ rest).
Proof. destruct r; [apply stops_tl|]. intros _. rewrite toks_cmdscons. split; reflexivity. Qed.

Lemma p_cmds_lexemes cs : forall rest fuel, flat_cmds cs = true -> stops pipeline_stops rest ->
  (length (toks (a_cmds pf cs) ++ rest) < fuel)%nat ->
  p_cmds fuel (toks (a_cmds pf cs) ++ rest) = Some (cs, rest).
Proof.
  induction cs as [|c r IH]; intros rest fuel Hf Hst Hlen.
  - change (toks (a_cmds pf CmdsNil)) with (@nil lexeme). cbn [app] in *.
    destruct fuel as [|f]; [lia|]. cbn [p_cmds].
    destruct rest as [|[w|o|n] t]; try contradiction; [reflexivity|].
    rewrite (stops_hd _ _ o t Hst). reflexivity.
  - cbn [flat_cmds] in Hf. apply andb_true_iff in Hf as [Hfc Hfr].
    rewrite toks_cmdscons in *. cbn [app] in *. rewrite <- app_assoc in *.
    destruct fuel as [|f]; [cbn [length] in Hlen; lia|]. cbn [p_cmds].
    change (is_lit (lit "|") "|") with true. cbn iota.
    rewrite (p_simple_lexemes c _ Hfc (stops_cmds r rest Hst)).
    rewrite (IH rest f Hfr Hst); [reflexivity|].
    cbn [length] in Hlen. rewrite app_length in Hlen. lia.
Qed.

Lemma p_pipeline_lexemes p rest fuel : flat_pipeline p = true -> stops pipeline_stops rest ->
  (length (toks (a_pipeline pf p) ++ rest) < fuel)%nat ->
  p_pipeline fuel (toks (a_pipeline pf p) ++ rest) = Some (p, rest).
Proof.
  destruct p as [[tm|] bang c r]; [discriminate|]. cbn [flat_pipeline]. intros Hf Hst Hlen.
  apply andb_true_iff in Hf as [Hfc Hfr].
  rewrite a_pipe in *. cbn [app] in *. rewrite !toks_app in *. rewrite <- !app_assoc in *.
  pose proof (p_simple_lexemes c _ Hfc (stops_cmds r rest Hst)) as Hs.
  destruct bang.
  - unfold KW, SP in *. cbn [toks flat_map toks_of app length] in *.
    apply (p_pipeline_bang Hs). apply p_cmds_lexemes; [exact Hfr | exact Hst |].
    rewrite app_length in Hlen. lia.
  - cbn [toks flat_map app] in *. destruct (simple_first c Hfc) as [x [tl [Ex Hx]]].
    rewrite Ex in *. cbn [app] in *.
    apply (p_pipeline_plain Hx Hs). apply p_cmds_lexemes; [exact Hfr | exact Hst |].
    cbn [length] in Hlen. rewrite app_length in Hlen. lia.
Qed.

Lemma toks_aocons a p r : toks (a_aorest pf (AoCons a p r)) =
  LOp (lit (if a then "&&" else "||")) :: toks (a_pipeline pf p) ++ toks (a_aorest pf r).
Proof. rewrite a_aocons, !toks_app. destruct a; reflexivity. Qed.

Lemma stops_aorest r rest : stops andor_stops rest -> stops pipeline_stops (toks (a_aorest pf r) ++ rest).
Proof.
  destruct r as [|a p r']; [intros H; exact (stops_tl _ _ _ (stops_tl _ _ _ H))|].
  intros _. rewrite toks_aocons. destruct a; split; reflexivity.
Qed.

Lemma p_aorest_lexemes ar : forall rest fuel, flat_aorest ar = true ->
  stops andor_stops rest ->
  (length (toks (a_aorest pf ar) ++ rest) < fuel)%nat ->
  p_aorest fuel (toks (a_aorest pf ar) ++ rest) = Some (ar, rest).
Proof.
  induction ar as [|a p r IH]; intros rest fuel Hf Hst Hlen.
  - change (toks (a_aorest pf AoNil)) with (@nil lexeme). cbn [app] in *.
    destruct fuel as [|f]; [lia|]. cbn [p_aorest].
    destruct rest as [|[w|o|n] t]; try contradiction; [reflexivity|].
    rewrite (stops_hd _ _ o t Hst), (stops_hd _ _ o t (stops_tl _ _ _ Hst)). reflexivity.
  - cbn [flat_aorest] in Hf. apply andb_true_iff in Hf as [Hfp Hfr].
    rewrite toks_aocons in *. cbn [app] in *. rewrite <- app_assoc in *.
    destruct fuel as [|f]; [cbn [length] in Hlen; lia|]. cbn [p_aorest].
    assert (Hop2 : is_lit (lit (if a then "&&" else "||")) "&&" || is_lit (lit (if a then "&&" else "||")) "||" = true)
      by (destruct a; reflexivity).
    rewrite Hop2. cbn [length] in Hlen.
    rewrite (p_pipeline_lexemes p _ f Hfp (stops_aorest r rest Hst)) by lia.
    rewrite (IH rest f Hfr Hst) by (rewrite app_length in Hlen; lia).
    destruct a; reflexivity.
Qed.

Lemma p_andor_lexemes a rest fuel : flat_andor a = true ->
  stops andor_stops rest ->
  (length (toks (a_andor pf a) ++ rest) < fuel)%nat ->
  p_andor fuel (toks (a_andor pf a) ++ rest) = Some (a, rest).
Proof.
  destruct a as [p r]. cbn [flat_andor]. intros Hf Hst Hlen.
  apply andb_true_iff in Hf as [Hfp Hfr].
  rewrite a_andor_eq, toks_app in *. rewrite <- app_assoc in *.
  unfold p_andor. rewrite (p_pipeline_lexemes p _ fuel Hfp (stops_aorest r rest Hst) Hlen).
  rewrite (p_aorest_lexemes r rest fuel Hfr Hst) by (rewrite app_length in Hlen; lia).
  reflexivity.
Qed.

Lemma andor_first a : flat_andor a = true -> exists x tl, toks (a_andor pf a) = x :: tl /\
  (x = LWord (lit "!") \/ first_ok x = true).
Proof.
  destruct a as [[[tm|] bang c r] ar]; [discriminate|]. cbn [flat_andor flat_pipeline]. intros H.
  apply andb_true_iff in H as [H _]. apply andb_true_iff in H as [Hc _].
  rewrite a_andor_eq, a_pipe, !toks_app. cbn [toks flat_map app].
  destruct bang.
  - unfold KW. cbn [toks flat_map toks_of app]. eexists; eexists; split; [reflexivity | left; reflexivity].
  - destruct (simple_first c Hc) as [x [tl [E Hx]]]. cbn [toks flat_map app]. rewrite E. cbn [app].
    eexists; eexists; split; [reflexivity | right; exact Hx].
Qed.

Definition END_ : list lexeme := [NLOP; RBRACE].

Lemma toks_sepop async last : toks (a_sepop async last) =
  if last then (if async then [LOp (lit "&")] else []) else [LOp (lit (if async then "&" else ";"))].
Proof. destruct async, last; reflexivity. Qed.

Lemma toks_clcons a s r : toks (a_clrest pf (ClCons a s r)) =
  NLOP :: toks (a_andor pf a) ++ toks (a_sepop s (is_clnil r)) ++ toks (a_clrest pf r).
Proof. rewrite a_clcons, !toks_app. reflexivity. Qed.

Lemma stops_seprest s r : stops andor_stops (toks (a_sepop s (is_clnil r)) ++ toks (a_clrest pf r) ++ END_).
Proof.
  rewrite toks_sepop. destruct r as [|a s' r']; cbn [is_clnil].
  - change (toks (a_clrest pf ClNil)) with (@nil lexeme). destruct s; split; reflexivity.
  - destruct s; split; reflexivity.
Qed.

Lemma p_seprest_lexemes cr : forall async fuel, flat_clrest cr = true ->
  (length (toks (a_sepop async (is_clnil cr)) ++ toks (a_clrest pf cr) ++ END_) < fuel)%nat ->
  p_seprest fuel (toks (a_sepop async (is_clnil cr)) ++ toks (a_clrest pf cr) ++ END_) = Some (async, cr, END_).
Proof.
  induction cr as [|a s r IH]; intros async fuel Hf Hlen.
  - change (toks (a_clrest pf ClNil)) with (@nil lexeme) in *. rewrite toks_sepop in *. cbn [is_clnil] in *.
    destruct fuel as [|f]; [lia|]. destruct async; reflexivity.
  - cbn [flat_clrest] in Hf. apply andb_true_iff in Hf as [Hfa Hfr].
    rewrite toks_sepop, toks_clcons in *. cbn [is_clnil] in *. cbn [app] in *.
    rewrite <- !app_assoc in *.
    destruct (andor_first a Hfa) as [x [tl [Ex Hx]]].
    destruct fuel as [|f]; [cbn [length] in Hlen; lia|]. cbn [length] in Hlen.
    assert (Hand : p_andor f (toks (a_andor pf a) ++ toks (a_sepop s (is_clnil r)) ++ toks (a_clrest pf r) ++ END_)
                   = Some (a, toks (a_sepop s (is_clnil r)) ++ toks (a_clrest pf r) ++ END_)).
    { apply p_andor_lexemes; [assumption | apply stops_seprest | lia]. }
    assert (Hrest : p_seprest f (toks (a_sepop s (is_clnil r)) ++ toks (a_clrest pf r) ++ END_) = Some (s, r, END_)).
    { apply IH; try assumption. rewrite !app_length in *. cbn [length] in *. lia. }
    destruct async; cbn [p_seprest].
    + change (is_lit (lit "&") ";") with false. change (is_lit (lit "&") "&") with true. cbn iota.
      assert (Hcl : closes (NLOP :: toks (a_andor pf a) ++ toks (a_sepop s (is_clnil r)) ++ toks (a_clrest pf r) ++ END_) = false).
      { rewrite Ex. unfold NLOP. cbn [app closes]. destruct x as [w|o|n]; [|reflexivity|reflexivity].
        destruct Hx as [Hx|Hx]; [inversion Hx; reflexivity|].
        destruct (first_ok_word w Hx) as [_ Hb]. rewrite Hb. apply andb_false_r. }
      rewrite Hcl. unfold NLOP at 1. change (is_nlop [10]) with true. cbn iota.
      rewrite Hand, Hrest. reflexivity.
    + change (is_lit (lit ";") ";") with true. cbn iota. unfold NLOP at 1. change (is_nlop [10]) with true. cbn iota.
      rewrite Hand, Hrest. reflexivity.
Qed.

Lemma p_clist_lexemes cl fuel : flat_clist cl = true ->
  (length (toks (a_clist pf cl) ++ END_) < fuel)%nat ->
  p_clist fuel (toks (a_clist pf cl) ++ END_) = Some (cl, END_).
Proof.
  destruct cl as [a s r]. cbn [flat_clist]. intros Hf Hlen.
  apply andb_true_iff in Hf as [Hfa Hfr].
  rewrite a_clist_eq, !toks_app in *. rewrite <- !app_assoc in *.
  unfold p_clist. rewrite (p_andor_lexemes a _ fuel Hfa (stops_seprest s r) Hlen).
  rewrite (p_seprest_lexemes r s fuel Hfr); [reflexivity|]. rewrite app_length in Hlen. lia.
Qed.

Lemma toks_function name cl : toks (a_cmd pf (CFunction name (KBrace cl) None)) =
  LWord name :: LOp (lit "(") :: LOp (lit ")") :: NLOP :: LWord (lit "{") :: NLOP :: toks (a_clist pf cl) ++ END_.
Proof.
  rewrite a_cfunction, a_kbrace. cbn [a_redirs]. rewrite app_nil_r. rewrite !toks_app, toks_bump. reflexivity.
Qed.

Theorem parse_lexemes c : flat_fun c = true -> parse (lexemes pf c) = Some c.
Proof.
  destruct c as [| |name k rs]; try discriminate. destruct k as [cl| | | | | |]; try discriminate.
  destruct rs; [discriminate|]. cbn [flat_fun]. intros Hf.
  unfold lexemes, parse. rewrite toks_function. unfold NLOP at 1 2. cbn [p_function].
  change (is_lit (lit "(") "(" && is_lit (lit ")") ")" && is_nlop [10] && is_lit (lit "{") "{" && is_nlop [10]) with true.
  cbn iota. rewrite (p_clist_lexemes cl _ Hf) by lia. reflexivity.
Qed.

Theorem parse_show c : flat_fun c = true -> ok_cmd pf false c = true -> parse (tokenize (show pf c)) = Some c.
Proof. intros Hf Hok. rewrite (show_separates_gen pf c Hok). apply parse_lexemes. exact Hf. Qed.
End Flat.

(** The shape of the statement one would want from a parser model of the whole sub-grammar.  Of the
    present [parse], which reads function definitions with a flat body only, it does not hold (a
    well-formed simple command parses to [None]); what is proved is [parse_show]. *)
Definition print_parse_print_stmt : Prop :=
  forall c, wf c = true -> parse (tokenize (show repaired_flags c)) = Some c.

(** non-vacuity: `f () { ! 2> e echo a >> o | cat && b& c }` (with a literal brace as an argument) *)
Definition ex_flat : cmd :=
  CFunction (lit "f") (KBrace (CList
    (AndOr (Pipe None true
              (CSimple [IRedir (RFile (Some (lit "2")) RWrite (lit "e"))] (Some (lit "echo"))
                       [IWord (lit "a"); IRedir (RFile None RAppend (lit "o"))])
              (CmdsCons (CSimple [] (Some (lit "cat")) []) CmdsNil))
           (AoCons true (Pipe None false (CSimple [] (Some (lit "b")) []) CmdsNil) AoNil))
    true
    (ClCons (AndOr (Pipe None false (CSimple [] (Some (lit "c")) [IWord (lit "}")]) CmdsNil) AoNil) false ClNil))) None.
Example parse_show_example :
  flat_fun ex_flat = true /\ ok_cmd old_flags false ex_flat = true /\
  parse (tokenize (show old_flags ex_flat)) = Some ex_flat.
Proof. vm_compute. repeat split; reflexivity. Qed.

Theorem parse_show_current c : flat_fun c = true -> wf c = true -> parse (tokenize (show current_flags c)) = Some c.
Proof. rewrite current_is_repaired. intros Hf Hw. apply parse_show; assumption. Qed.
