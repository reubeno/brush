(** C05: the equivalence of Expand/SpecProofs.v extended to ${p:-w} ${p-w} ${p:+w} ${p+w} with a
    scalar parameter p and a list-free default / alternative word w (one nesting level), outside
    and inside double quotes. *)
From BV Require Import Base.Prelude Expand.Model Expand.SplitSpec Expand.Proofs Expand.SpecProofs.

Definition scalar_pexpr (pe : pexpr) : bool :=
  match pe with EPlain p => negb (is_list_param p) | _ => false end.
(** inside the "..." of a default word / a piece of a default word *)
Definition sub_inner (p : wpiece) : bool :=
  match p with WDQ _ => false | WParam pe => scalar_pexpr pe | _ => true end.
Definition sub_piece (p : wpiece) : bool :=
  match p with WDQ ps => forallb sub_inner ps | WParam pe => scalar_pexpr pe | _ => true end.
Definition sub_word (w : word) : bool := forallb sub_piece w.

Definition frag2_pexpr (pe : pexpr) : bool :=
  match pe with
  | EPlain _ => true
  | EDefault p _ _ w | EAlt p _ _ w => negb (is_list_param p) && sub_word w
  | ELen _ => true
  end.
Definition frag2_inner (p : wpiece) : bool :=
  match p with WDQ _ => false | WParam pe => frag2_pexpr pe | _ => true end.
Definition frag2_piece (p : wpiece) : bool :=
  match p with WDQ ps => forallb frag2_inner ps | WParam pe => frag2_pexpr pe | _ => true end.
Definition frag2 (w : word) : bool := forallb frag2_piece w.

Section DefaultWord.
Variable o : oracles.
Variable e : env.

(** the loop over a default word in [expand_pexpr] *)
Lemma basic_fix_eq dq' l acc :
  (fix basic (w : list wpiece) (acc : expansion) {struct w} : res expansion :=
     match w with
     | [] => Ok acc
     | p :: r => match expand_piece o e dq' p with
                 | Ok x => basic r (coalesce_step acc x)
                 | Err c => Err c
                 end
     end) l acc = rmap (fun xs => fold_left coalesce_step xs acc) (expand_pieces o e dq' l).
Proof.
  revert acc. induction l as [|p l IH]; intros acc; [reflexivity|]. cbn [expand_pieces bind].
  destruct (expand_piece o e dq' p) as [x|c]; [|reflexivity].
  rewrite IH. cbn [bind]. now destruct (expand_pieces o e dq' l).
Qed.

Definition pword (dq q : bool) (w : list wpiece) : res expansion :=
  match w with
  | [] => Ok (exp_of_str [])
  | _ => rmap coalesce (expand_pieces o e (dq && negb q) w)
  end.

Lemma expand_default_eq dq p colon q w :
  expand_pexpr o e dq (EDefault p colon q w) =
  if param_wins colon (classify (expand_param e p)) then Ok (expand_param e p) else pword dq q w.
Proof.
  cbn [expand_pexpr]. destruct (param_wins colon (classify (expand_param e p))); [reflexivity|].
  destruct w as [|p0 r0]; [reflexivity|]. exact (basic_fix_eq _ (p0 :: r0) exp_default).
Qed.

Lemma expand_alt_eq dq p colon q w :
  expand_pexpr o e dq (EAlt p colon q w) =
  if param_wins colon (classify (expand_param e p)) then pword dq q w else Ok (exp_of_str []).
Proof.
  cbn [expand_pexpr]. destruct (param_wins colon (classify (expand_param e p))); [|reflexivity].
  destruct w as [|p0 r0]; [reflexivity|]. exact (basic_fix_eq _ (p0 :: r0) exp_default).
Qed.

(** what the specification makes of a default word *)
Definition sub_spec (dq q : bool) (w : list wpiece) : res (list item) :=
  rmap (fun l => if dq then requote l else l) (items o e false (dq && negb q) w).

Lemma items_default_eq top dq p colon q w :
  pexpr_items o e top dq (EDefault p colon q w) =
  if uses_param e colon p then Ok (param_items e dq p) else sub_spec dq q w.
Proof.
  cbn [pexpr_items]. destruct (uses_param e colon p); [reflexivity|].
  exact (f_equal (rmap _) (items_fix_eq o e false _ w)).
Qed.

Lemma items_alt_eq top dq p colon q w :
  pexpr_items o e top dq (EAlt p colon q w) =
  if uses_param e colon p then sub_spec dq q w else Ok (if dq then [QNull] else []).
Proof.
  cbn [pexpr_items]. destruct (uses_param e colon p); [|reflexivity].
  exact (f_equal (rmap _) (items_fix_eq o e false _ w)).
Qed.

Lemma wins_eq colon p : is_list_param p = false ->
  param_wins colon (classify (expand_param e p)) = uses_param e colon p.
Proof.
  intros Hl. rewrite (expand_param_nonlist e p Hl). unfold uses_param, is_set, is_nonnull. rewrite Hl.
  unfold classify; cbn [undefined fields existsb piece_str orb is_nil].
  destruct (scalar_of e p) as [[|c r]|]; destruct colon; reflexivity.
Qed.

(** ${p:-w} and ${p:+w}, in or out of double quotes: the parameter, the word, or nothing *)
Lemma default_sim (S : res expansion -> res (list item) -> Prop) dq top pe : frag2_pexpr pe = true ->
  (forall pe', frag_pexpr pe' = true -> S (expand_pexpr o e dq pe') (pexpr_items o e top dq pe')) ->
  (forall q w, sub_word w = true -> S (pword dq q w) (sub_spec dq q w)) ->
  S (Ok (exp_of_str [])) (Ok (if dq then [QNull] else [])) ->
  S (expand_pexpr o e dq pe) (pexpr_items o e top dq pe).
Proof.
  intros Hf Hplain Hword Hnone. destruct pe as [p|p colon q w|p colon q w|p]; try (now apply Hplain);
    cbn [frag2_pexpr] in Hf; apply andb_true_iff in Hf as [Hl Hw]; apply negb_true_iff in Hl.
  - rewrite expand_default_eq, items_default_eq, (wins_eq colon p Hl).
    destruct (uses_param e colon p); [exact (Hplain (EPlain p) eq_refl) | now apply Hword].
  - rewrite expand_alt_eq, items_alt_eq, (wins_eq colon p Hl).
    destruct (uses_param e colon p); [now apply Hword | exact Hnone].
Qed.

End DefaultWord.

Section Unquoted.
Variable o : oracles.
Variable e : env.
Variable sep : str.

Lemma sub_no_zero ps : forallb sub_inner ps = true -> existsb (zero_list_piece e) ps = false.
Proof.
  induction ps as [|p r IH]; [reflexivity|]. cbn [forallb existsb]. intros H.
  apply andb_true_iff in H as [H1 H2]. rewrite (IH H2), orb_false_r.
  destruct p as [| | | | |[p| | |]| | |]; try reflexivity; cbn in H1; try discriminate.
  cbn. apply negb_true_iff in H1. now rewrite H1.
Qed.

Lemma scalar_frag pe : scalar_pexpr pe = true -> frag_pexpr pe = true.
Proof. now destruct pe. Qed.

(** the default word itself, outside quotes: a word of the fragment given by [scalar_pexpr], its
    text read as [Exp] *)
Lemma pword_unquoted q w : sub_word w = true -> star_ok e ->
  sim_unq sep (pword o e false q w) (sub_spec o e false q w).
Proof.
  intros Hf Hstar. unfold pword, sub_spec, sim_unq. cbn [andb].
  destruct w as [|p0 r0]; [cbn; apply equiv_refl|].
  eapply res_rel_map; [intros xs l _ _ H; exact H|].
  apply (word_unq o e sep scalar_pexpr).
  - intros top pe H. exact (plain_dq o e sep Hstar top pe (scalar_frag pe H)).
  - intros top pe H. exact (plain_unq o e sep top pe (scalar_frag pe H)).
  - intros p Hin. split; [exact (forallb_in _ _ p Hf Hin)|]. split.
    + intros ps inner -> _ Hc.
      rewrite (sub_no_zero ps (forallb_in _ _ _ Hf Hin)) in Hc. discriminate.
    + intros H. discriminate.
Qed.

Lemma default_unq top pe : frag2_pexpr pe = true -> star_ok e ->
  sim_unq sep (expand_pexpr o e false pe) (pexpr_items o e top false pe).
Proof.
  intros Hf Hstar. apply default_sim; [exact Hf | | | cbn; apply equiv_refl].
  - intros pe' H. now apply plain_unq.
  - intros q w H. now apply pword_unquoted.
Qed.

End Unquoted.

(** Inside double quotes: everything the default word yields is one quoted run *)

Section Quoted.
Variable o : oracles.
Variable e : env.
Variable sep : str.

Definition no_brk (l : list item) : bool := forallb (fun i => match i with Brk => false | _ => true end) l.
Definition chars_of (l : list item) : str := flat_map (fun i => match i with Ch c _ => [c] | _ => [] end) l.

Lemma chars_of_app a b : chars_of (a ++ b) = chars_of a ++ chars_of b.
Proof. unfold chars_of. now rewrite flat_map_app. Qed.
Lemma no_brk_app a b : no_brk (a ++ b) = no_brk a && no_brk b.
Proof. unfold no_brk. apply forallb_app. Qed.
Lemma chars_of_chars k s : chars_of (chars k s) = s /\ no_brk (chars k s) = true.
Proof.
  induction s as [|c r [IH1 IH2]]; [auto|].
  change (chars_of (chars k (c :: r))) with (c :: chars_of (chars k r)).
  change (no_brk (chars k (c :: r))) with (no_brk (chars k r)).
  now rewrite IH1, IH2.
Qed.
Lemma chars_of_quoted s : chars_of (quoted s) = s /\ no_brk (quoted s) = true.
Proof. unfold quoted. cbn. apply chars_of_chars. Qed.

Lemma run_requote_tail l : forall a c, no_brk l = true ->
  run sep (mkSt a c true DNone) (map (fun i => match i with Ch c0 _ => Ch c0 Quo | _ => i end) l) =
  mkSt a (c ++ map (fun x => (x, true)) (chars_of l)) true DNone.
Proof.
  induction l as [|i r IH]; intros a c H; [cbn; now rewrite app_nil_r|].
  cbn in H. apply andb_true_iff in H as [Hi Hr].
  cbn [map]. rewrite run_cons.
  destruct i as [c0 k| |]; [| |discriminate].
  - cbn [step]. unfold push; cbn [s_acc s_cur]. rewrite IH by exact Hr.
    change (chars_of (Ch c0 k :: r)) with (c0 :: chars_of r). cbn [map]. now rewrite <- app_assoc.
  - cbn [step s_acc s_cur]. rewrite IH by exact Hr. reflexivity.
Qed.

Lemma requote_equiv l : no_brk l = true -> equiv sep (requote l) (quoted (chars_of l)).
Proof.
  intros H st. rewrite run_quoted. unfold requote. rewrite run_cons. cbn [step].
  now rewrite run_requote_tail.
Qed.

Lemma run_flat_mu f : forall st, f <> [] ->
  run sep st (flat_field (map make_unsplittable f)) =
  mkSt (s_acc st) (s_cur st ++ map (fun x => (x, true)) (field_str f)) true DNone.
Proof.
  induction f as [|p r IH]; intros st Hne; [congruence|].
  cbn [map flat_field flat_map]. rewrite run_app.
  change (flat_piece (make_unsplittable p)) with (quoted (piece_str p)). rewrite run_quoted.
  destruct r as [|p2 r]; [cbn; now rewrite !app_nil_r|].
  fold (flat_field (map make_unsplittable (p2 :: r))). rewrite IH by discriminate. cbn [s_acc s_cur].
  change (field_str (p :: p2 :: r)) with (piece_str p ++ field_str (p2 :: r)). now rewrite map_app, app_assoc.
Qed.

Lemma flat_mu_equiv f : f <> [] -> equiv sep (flat_field (map make_unsplittable f)) (quoted (field_str f)).
Proof. intros Hne st. now rewrite run_quoted, run_flat_mu. Qed.

Lemma mu_idem f : map make_unsplittable (map make_unsplittable f) = map make_unsplittable f.
Proof. rewrite map_map. apply map_ext. now intros []. Qed.

Lemma to_append_single j x f : fields x = [f] -> f <> [] ->
  map (map make_unsplittable) (to_append j x) = [map make_unsplittable f].
Proof.
  intros Hf Hne. unfold to_append. rewrite Hf. destruct (concatenate x); [|reflexivity].
  cbn [map intersperse_flat]. rewrite nonnil_match by now destruct f.
  cbn [map]. now rewrite mu_idem.
Qed.

Definition single (x : expansion) (l : list item) : Prop :=
  exists f, fields x = [f] /\ f <> [] /\ no_brk l = true /\ chars_of l = field_str f.

(** [res_rel single], spelled out (the two are convertible) *)
Definition single_ok (m : res expansion) (s : res (list item)) : Prop :=
  match m, s with
  | Ok x, Ok l => exists f, fields x = [f] /\ f <> [] /\ no_brk l = true /\ chars_of l = field_str f
  | Err c, Err c' => c = c'
  | _, _ => False
  end.

Lemma single_piece k x l : fields x = [[k]] -> chars_of l = piece_str k /\ no_brk l = true -> single x l.
Proof. intros Hx [H1 H2]. exists [k]. rewrite field_str_one. repeat split; auto. discriminate. Qed.

Lemma items_dq_or k (dq' : bool) v : chars_of (if dq' then quoted v else chars k v) = v /\
  no_brk (if dq' then quoted v else chars k v) = true.
Proof. destruct dq'; [apply chars_of_quoted | apply chars_of_chars]. Qed.

Lemma single_inner top dq' p : sub_inner p = true ->
  single_ok (expand_piece o e dq' p) (piece_items o e top dq' p).
Proof.
  intros Hf. destruct p as [s|s|s|ps|t|pe|c|a|s]; cbn [sub_inner] in Hf; try discriminate;
    cbn [expand_piece piece_items single_ok].
  - eapply single_piece; [reflexivity | apply items_dq_or].
  - eapply single_piece; [reflexivity | apply chars_of_quoted].
  - eapply single_piece; [reflexivity | apply chars_of_quoted].
  - destruct (o_tilde o t) as [v|]; cbn [single_ok]; [|reflexivity].
    eapply single_piece; [reflexivity | apply chars_of_quoted].
  - destruct pe as [p| | |]; cbn [scalar_pexpr] in Hf; try discriminate. apply negb_true_iff in Hf.
    cbn [expand_pexpr pexpr_items single_ok]. unfold param_items. rewrite Hf, (expand_param_nonlist e p Hf).
    eapply single_piece; [reflexivity | apply items_dq_or].
  - eapply single_piece; [reflexivity | apply items_dq_or].
  - eapply single_piece; [reflexivity | apply items_dq_or].
  - eapply single_piece; [reflexivity | apply chars_of_quoted].
Qed.

(** [coalesce] and the loop of a double-quoted string both fold [join_fields] over what each
    expansion contributes ([g]); contributions of one non-empty field keep extending one field *)
Definition one_field (fs : list wfield) (l : list item) : Prop :=
  exists f, fs = [f] /\ f <> [] /\ no_brk l = true /\ chars_of l = field_str f.

Lemma fold_join_one (g : expansion -> list wfield) xs ls :
  Forall2 (fun x l => one_field (g x) l) xs ls -> forall h,
  exists f', fold_left (fun a x => join_fields a (g x)) xs [h] = [h ++ f'] /\
             no_brk (concat ls) = true /\ chars_of (concat ls) = field_str f'.
Proof.
  induction 1 as [|x l xs ls (f0 & Hx & Hne & Hnb & Hch) _ IH]; intros h; cbn [fold_left concat].
  - exists []. now rewrite app_nil_r.
  - rewrite Hx. destruct (IH (h ++ f0)) as (f' & Hf & Hnb' & Hch').
    exists (f0 ++ f'). split; [now rewrite app_assoc|].
    rewrite no_brk_app, Hnb, Hnb', chars_of_app, Hch, Hch', field_str_app. auto.
Qed.

Lemma fold_join_one_start (g : expansion -> list wfield) xs ls :
  Forall2 (fun x l => one_field (g x) l) xs ls -> xs <> [] ->
  one_field (fold_left (fun a x => join_fields a (g x)) xs []) (concat ls).
Proof.
  destruct 1 as [|x l xs ls (f0 & Hx & Hne & Hnb & Hch) H]; [congruence|]. intros _.
  cbn [fold_left concat]. rewrite Hx, join_fields_nil_l.
  destruct (fold_join_one g xs ls H f0) as (f' & Hf & Hnb' & Hch').
  exists (f0 ++ f'). split; [exact Hf|]. split; [now destruct f0|].
  rewrite no_brk_app, Hnb, Hnb', chars_of_app, Hch, Hch', field_str_app. auto.
Qed.

(** what a single-field expansion contributes inside double quotes *)
Lemma single_dq j x l : single x l -> one_field (map (map make_unsplittable) (to_append j x)) l.
Proof.
  intros (f0 & Hx & Hne & Hnb & Hch). exists (map make_unsplittable f0).
  rewrite (to_append_single j x f0 Hx Hne), field_str_map_make. repeat split; auto. now destruct f0.
Qed.

(** [single_inner] for every piece of a default word, double-quoted strings included *)
Lemma C1 top dq' p : sub_piece p = true ->
  single_ok (expand_piece o e dq' p) (piece_items o e top dq' p).
Proof.
  intros Hf. destruct p as [s|s|s|ps|t|pe|c|a|s];
    try (apply single_inner; exact Hf).
  cbn [sub_piece] in Hf. rewrite expand_dq_eq, piece_items_dq. destruct ps as [|p0 r0].
  - cbn. exists [Unsplittable []]. repeat split; auto. discriminate.
  - rewrite (sub_no_zero e _ Hf). cbn [andb is_nil].
    change single_ok with (res_rel single). eapply res_rel_map;
      [|apply pieces_rel; intros p Hin; eapply res_rel_imp;
        [exact (single_dq (ifs_joiner e)) | exact (single_inner top true p (forallb_in _ _ p Hf Hin))]].
    intros xs l Hm _ (ls & -> & H). exact (fold_join_one_start _ xs ls H (expand_pieces_nonnil Hm)).
Qed.

Lemma pword_quoted q w : sub_word w = true ->
  sim_dq e sep (pword o e true q w) (sub_spec o e true q w).
Proof.
  intros Hf. unfold pword, sub_spec, sim_dq. destruct w as [|p0 r0].
  - cbn [items rmap res_rel]. erewrite dq_out_single by reflexivity. apply equiv_refl.
  - eapply res_rel_map;
      [|apply pieces_rel; intros p Hin; exact (C1 false _ p (forallb_in _ _ p Hf Hin))].
    intros xs l Hm _ (ls & -> & H).
    destruct (fold_join_one_start fields xs ls H (expand_pieces_nonnil Hm)) as (f & Hx & Hne & Hnb & Hch).
    rewrite <- fields_coalesce in Hx.
    unfold dq_out. rewrite (to_append_single _ _ f Hx Hne), flat_one.
    eapply equiv_trans; [apply flat_mu_equiv; exact Hne|]. rewrite <- Hch.
    apply equiv_sym. now apply requote_equiv.
Qed.

Lemma default_dq top pe : frag2_pexpr pe = true -> star_ok e ->
  sim_dq e sep (expand_pexpr o e true pe) (pexpr_items o e top true pe).
Proof.
  intros Hf Hstar. apply default_sim; [exact Hf | | | ].
  - intros pe' H. now apply plain_dq.
  - intros q w H. now apply pword_quoted.
  - unfold sim_dq. cbn [res_rel]. erewrite dq_out_single by reflexivity. apply equiv_refl.
Qed.

End Quoted.

Section Main.
Variable o : oracles.
Variable e : env.

Theorem fields_model_eq_spec2 w :
  ifs_ws (ifs_of e) -> frag2 w = true -> lit_ok (ifs_of e) w = true ->
  known_at_null o e w = false -> star_ok e ->
  spec_fields o e w =
  match basic_expand o e w with
  | Ok x => Ok (map tagged (split_fields e x))
  | Err c => Err c
  end.
Proof.
  intros Hws Hf Hlit Hk Hstar. apply fields_of_sim; [exact Hws|].
  apply word_sim with (okpe := frag2_pexpr); [| | exact Hf | exact Hk | exact Hlit].
  - intros top pe H. now apply default_dq.
  - intros top pe H. now apply default_unq.
Qed.

Lemma frag_frag2 w : frag w = true -> frag2 w = true.
Proof.
  assert (Hi : forall p, frag_inner p = true -> frag2_inner p = true).
  { intros [| | | | |[| | |]| | |]; cbn; auto; discriminate. }
  assert (Hl : forall ps, forallb frag_inner ps = true -> forallb frag2_inner ps = true).
  { induction ps as [|p r IH]; cbn; auto. intros H. apply andb_true_iff in H as [H1 H2]. now rewrite (Hi p H1), IH. }
  induction w as [|p r IH]; [reflexivity|]. intros H.
  change (frag (p :: r)) with (frag_piece p && frag r) in H. apply andb_true_iff in H as [H1 H2].
  change (frag2 (p :: r)) with (frag2_piece p && frag2 r). rewrite (IH H2), andb_true_r.
  destruct p as [| | |ps| |[| | |]| | |]; cbn in *; auto; discriminate.
Qed.

End Main.

(** non-vacuity: x unset, y="a b", IFS default: the word  p${x:-$y"q r"}"${x:+z}${y:-d}"  is in the
    larger fragment only; the specification cuts it into  pa  and  b"q ra b" *)
Definition ex_default_env : env :=
  mkEnv [([121%N], VStr [97; 32; 98]%N)] [] None false false false false false.
Definition ex_default_word : word :=
  [WText [112]%N;
   WParam (EDefault (PNamed [120%N]) true false [WParam (EPlain (PNamed [121%N])); WDQ [WText [113; 32; 114]%N]]);
   WDQ [WParam (EAlt (PNamed [120%N]) true false [WDQ [WText [122%N]]]); WParam (EDefault (PNamed [121%N]) true false [WDQ [WText [100%N]]])]].

Lemma ex_default_in_fragment :
  frag2 ex_default_word = true /\ frag ex_default_word = false /\
  spec_fields ex_oracles0 ex_default_env ex_default_word =
    Ok [[(112, false); (97, false)]; [(98, false); (113, true); (32, true); (114, true); (97, true); (32, true); (98, true)]]%N.
Proof. repeat split; vm_compute; reflexivity. Qed.
