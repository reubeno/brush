(** C04: what the Splittable/Unsplittable tagging guarantees, for all values, all IFS, all
    glob options and all oracles (directory contents, matcher, command output ...). *)
From BV Require Import Base.Prelude Expand.Model Expand.SplitSpec.

Definition rmap {A B} (f : A -> B) (r : res A) : res B :=
  match r with Ok a => Ok (f a) | Err c => Err c end.

Definition is_uns (p : epiece) : bool := match p with Unsplittable _ => true | Splittable _ => false end.
Definition all_uns (f : wfield) : bool := forallb is_uns f.
Definition uns_fields (fs : list wfield) : Prop := Forall (fun f => all_uns f = true) fs.
Definition nonempty {A} (l : list A) : bool := negb (is_nil l).

Lemma field_str_app a b : field_str (a ++ b) = field_str a ++ field_str b.
Proof. unfold field_str. now rewrite map_app, concat_app. Qed.

Lemma field_str_one p : field_str [p] = piece_str p.
Proof. apply app_nil_r. Qed.

Lemma all_uns_app a b : all_uns (a ++ b) = all_uns a && all_uns b.
Proof. unfold all_uns. apply forallb_app. Qed.

Lemma all_uns_map_make f : all_uns (map make_unsplittable f) = true.
Proof. induction f as [|p f IH]; cbn; auto. Qed.

Lemma field_str_map_make f : field_str (map make_unsplittable f) = field_str f.
Proof. unfold field_str. rewrite map_map. reflexivity. Qed.

Lemma split_pieces_uns sep f : forall cur acc, all_uns f = true ->
  split_pieces sep f cur acc = (cur ++ f, acc).
Proof.
  induction f as [|p f IH]; intros cur acc H; cbn.
  - now rewrite app_nil_r.
  - destruct p as [s|s]; cbn in H; [|discriminate].
    rewrite IH by exact H. now rewrite <- app_assoc.
Qed.

Lemma flush_spec cur acc : flush cur acc = acc ++ (if nonempty cur then [cur] else []).
Proof. destruct cur; cbn; [now rewrite app_nil_r | reflexivity]. Qed.

Lemma split_loop_uns sep fs : forall acc, uns_fields fs ->
  split_loop sep fs acc = acc ++ filter nonempty fs.
Proof.
  induction fs as [|f fs IH]; intros acc H; cbn.
  - now rewrite app_nil_r.
  - inversion H as [|? ? Hf Hfs]; subst.
    rewrite split_pieces_uns by exact Hf. cbn [app].
    rewrite IH by exact Hfs. rewrite flush_spec.
    destruct f; cbn; [now rewrite app_nil_r | now rewrite <- app_assoc].
Qed.

Section WithOracles.
Variable o : oracles.
Variable e : env.

Lemma piece_requires_uns f : all_uns f = true -> existsb (piece_requires o e) f = false.
Proof.
  induction f as [|p f IH]; cbn; auto.
  destruct p; cbn; [exact IH | discriminate].
Qed.

(** unsplittable_fields_skip_globbing: a field made of quoted pieces only is delivered as its
    text — whatever the directory contains, whatever nullglob/failglob/dotglob/extglob say. *)
Lemma expand_pathnames_uns f : all_uns f = true -> f <> [] ->
  expand_pathnames o e f = Ok [field_str f].
Proof.
  intros H Hne. unfold expand_pathnames, pattern_expand.
  destruct f as [|p f]; [congruence|].
  now rewrite piece_requires_uns by exact H.
Qed.

Lemma glob_fields_uns fs : uns_fields fs ->
  glob_fields o e (filter nonempty fs) = Ok (map field_str (filter nonempty fs)).
Proof.
  induction fs as [|f fs IH]; intros H; [reflexivity|]. inversion H as [|? ? Hf Hfs]; subst.
  destruct f as [|p f]; [exact (IH Hfs)|]. cbn [filter nonempty is_nil negb glob_fields map].
  rewrite expand_pathnames_uns by (assumption || discriminate).
  destruct (noglob e); cbn [bind]; rewrite IH by exact Hfs; reflexivity.
Qed.

Lemma split_glob_uns x : uns_fields (fields x) ->
  glob_fields o e (split_fields e x) = Ok (map field_str (filter nonempty (fields x))).
Proof.
  intros H. unfold split_fields. rewrite split_loop_uns by exact H. now apply glob_fields_uns.
Qed.

Lemma append_to_last_snoc acc l f : append_to_last (acc ++ [l]) f = acc ++ [l ++ f].
Proof.
  induction acc as [|a acc IH]; [reflexivity|].
  destruct acc as [|b acc']; [reflexivity|].
  change ((a :: b :: acc') ++ [l]) with (a :: ((b :: acc') ++ [l])).
  change (append_to_last (a :: ((b :: acc') ++ [l])) f) with (a :: append_to_last ((b :: acc') ++ [l]) f).
  now rewrite IH.
Qed.

Lemma join_fields_snoc a l f r : join_fields (a ++ [l]) (f :: r) = a ++ (l ++ f) :: r.
Proof.
  unfold join_fields. destruct (a ++ [l]) eqn:E; [now destruct a|]. rewrite <- E.
  now rewrite append_to_last_snoc, <- app_assoc.
Qed.

Lemma join_fields_uns acc fs : uns_fields acc -> uns_fields fs -> uns_fields (join_fields acc fs).
Proof.
  intros Ha Hf. destruct fs as [|f r]; [exact Ha|].
  destruct acc as [|l acc _] using rev_ind; [exact Hf|]. rewrite join_fields_snoc.
  apply Forall_app in Ha as [Ha Hl]. apply Forall_cons_iff in Hl as [Hl _]. apply Forall_cons_iff in Hf as [Hf Hr].
  apply Forall_app. split; [exact Ha|]. constructor; [|exact Hr]. now rewrite all_uns_app, Hl, Hf.
Qed.

(** the loop of process_double_quoted_pieces: expand every piece, then fold [dq_step] *)
Lemma expand_dq_eq dq ps :
  expand_piece o e dq (WDQ ps) =
  rmap (fun xs => let fs := fold_left (dq_step (ifs_joiner e)) xs [] in
                  mkExp (if is_nil ps then fs ++ [[Unsplittable []]] else fs) false false false)
       (expand_pieces o e true ps).
Proof.
  cbn [expand_piece].
  match goal with |- match ?G ps [] with _ => _ end = _ =>
    assert (Hgo : forall l acc, G l acc =
      rmap (fun xs => fold_left (dq_step (ifs_joiner e)) xs acc) (expand_pieces o e true l)) end.
  { induction l as [|p l IH]; intros acc; cbn; [reflexivity|].
    destruct (expand_piece o e true p) as [x|c]; [|reflexivity].
    rewrite IH. cbn. now destruct (expand_pieces o e true l). }
  rewrite Hgo. now destruct (expand_pieces o e true ps).
Qed.

Lemma fold_dq_uns j xs : forall acc, uns_fields acc ->
  uns_fields (fold_left (dq_step j) xs acc).
Proof.
  induction xs as [|x xs IH]; intros acc H; [exact H|]. apply IH, join_fields_uns; [exact H|].
  apply Forall_forall. intros f Hin. apply in_map_iff in Hin as (g & <- & _). apply all_uns_map_make.
Qed.

Lemma expand_dq_uns dq ps x : expand_piece o e dq (WDQ ps) = Ok x ->
  uns_fields (fields x).
Proof.
  rewrite expand_dq_eq. destruct (expand_pieces o e true ps) as [xs|c]; [|discriminate].
  cbn [rmap]. intros [= <-]. cbn [fields].
  pose proof (fold_dq_uns (ifs_joiner e) xs [] (Forall_nil _)) as Hu.
  destruct (is_nil ps); [|exact Hu].
  apply Forall_app; split; [exact Hu | repeat constructor].
Qed.

Lemma expand_pieces_nonnil dq p r xs : expand_pieces o e dq (p :: r) = Ok xs -> xs <> [].
Proof.
  cbn [expand_pieces]. destruct (expand_piece o e dq p); [|discriminate].
  cbn [bind]. destruct (expand_pieces o e dq r); [|discriminate]. cbn [bind]. now intros [= <-].
Qed.

Lemma join_fields_nil_l fs : join_fields [] fs = fs.
Proof. now destruct fs. Qed.

Lemma coalesce_one x : coalesce [x] = mkExp (fields x) (concatenate x) (from_array x) false.
Proof. unfold coalesce, coalesce_step. cbn [fold_left]. now rewrite join_fields_nil_l. Qed.

Lemma basic_expand_one p : basic_expand o e [p] = rmap (fun x => coalesce [x]) (expand_piece o e false p).
Proof. unfold basic_expand. cbn [expand_pieces bind]. now destruct (expand_piece o e false p). Qed.

(** dq_never_split_or_globbed — the mechanism behind every quoted form: whatever stands between
    the double quotes, the word yields exactly the fields that double-quote processing built;
    no IFS character, glob character or directory entry can change their number or content. *)
Theorem dq_never_split_or_globbed ps x : expand_piece o e false (WDQ ps) = Ok x ->
  full_expand o e [WDQ ps] = Ok (map field_str (filter nonempty (fields x))).
Proof.
  intros H. unfold full_expand. rewrite basic_expand_one, H. cbn [rmap bind]. rewrite coalesce_one.
  apply (split_glob_uns (mkExp _ _ _ _)). exact (expand_dq_uns _ _ _ H).
Qed.

Lemma dq_full ps xs : expand_pieces o e true ps = Ok xs -> ps <> [] ->
  full_expand o e [WDQ ps] =
  Ok (map field_str (filter nonempty (fold_left (dq_step (ifs_joiner e)) xs []))).
Proof.
  intros Hx Hne. erewrite dq_never_split_or_globbed by (rewrite expand_dq_eq, Hx; reflexivity).
  destruct ps; [congruence | reflexivity].
Qed.

Definition scalar_value (p : param) : option str :=
  match p with
  | PNamed _ | PPos _ | PIdx _ _ | PCount =>
      match fields (expand_param e p) with [[Splittable s]] => Some s | _ => None end
  | _ => None
  end.

Lemma expand_param_nonlist p : is_list_param p = false ->
  expand_param e p = mkExp [[Splittable (match scalar_of e p with Some s => s | None => [] end)]]
                           true false (match scalar_of e p with Some _ => false | None => true end).
Proof.
  destruct p as [n|n|c|n c|n i|]; intros H; try discriminate; cbn.
  - destruct (lookup (vars e) n) as [[s|[|s l]]|]; reflexivity.
  - destruct n as [|k]; [reflexivity|]. cbn. destruct (nth_error (args e) k); reflexivity.
  - destruct (lookup (vars e) n) as [[s|l]|]; [destruct i| |]; try reflexivity.
    destruct (nth_error l i); reflexivity.
  - reflexivity.
Qed.

Lemma expand_param_list p : is_list_param p = true ->
  expand_param e p = exp_of_array (elems_of e p) (is_star p).
Proof.
  destruct p as [n|n|c|n c|n i|]; intros H; try discriminate; cbn; [reflexivity|].
  destruct (lookup (vars e) n) as [[s|l]|]; reflexivity.
Qed.

Lemma expand_param_scalar p : match p with PNamed _ | PPos _ | PIdx _ _ | PCount => True | _ => False end ->
  exists s, fields (expand_param e p) = [[Splittable s]] /\ concatenate (expand_param e p) = true.
Proof.
  intros H. eexists.
  rewrite expand_param_nonlist by (destruct p; try reflexivity; contradiction).
  split; reflexivity.
Qed.

Lemma dq_scalar_fields p s : fields (expand_param e p) = [[Splittable s]] ->
  concatenate (expand_param e p) = true ->
  expand_piece o e false (WDQ [WParam (EPlain p)]) =
  Ok (mkExp [[Unsplittable s]] false false false).
Proof.
  intros Hf Hc. rewrite expand_dq_eq. cbn [expand_pieces expand_piece expand_pexpr bind rmap fold_left is_nil].
  unfold dq_step. rewrite Hc, Hf. reflexivity.
Qed.

(** dq_param_exact: "$x" / "${x}" / "$1" / "${a[i]}" is exactly one argument holding the value,
    even when it is empty or unset (then the argument is the empty string). *)
Theorem dq_param_exact p s : fields (expand_param e p) = [[Splittable s]] ->
  concatenate (expand_param e p) = true ->
  full_expand o e [WDQ [WParam (EPlain p)]] = Ok [s].
Proof.
  intros Hf Hc. rewrite (dq_never_split_or_globbed _ _ (dq_scalar_fields p s Hf Hc)). cbn.
  now rewrite app_nil_r.
Qed.

Corollary dq_named_exact x v : lookup (vars e) x = Some (VStr v) ->
  full_expand o e [WDQ [WParam (EPlain (PNamed x))]] = Ok [v].
Proof. intros H. apply dq_param_exact; cbn; now rewrite H. Qed.

Corollary dq_unset_is_one_empty x : lookup (vars e) x = None ->
  full_expand o e [WDQ [WParam (EPlain (PNamed x))]] = Ok [[]].
Proof. intros H. apply dq_param_exact; cbn; now rewrite H. Qed.

Lemma map_make_singletons vs :
  map (map make_unsplittable) (map (fun v => [Splittable v]) vs) = map (fun v => [Unsplittable v]) vs.
Proof. induction vs as [|v vs IH]; [reflexivity|]. cbn [map make_unsplittable piece_str]. now rewrite IH. Qed.

Lemma filter_nonempty_singletons (vs : list str) :
  filter nonempty (map (fun v => [Unsplittable v]) vs) = map (fun v => [Unsplittable v]) vs.
Proof. induction vs as [|v vs IH]; [reflexivity|]. cbn [map filter]. unfold nonempty at 1. cbn [is_nil negb]. now rewrite IH. Qed.

Lemma field_str_singletons (vs : list str) : map field_str (map (fun v => [Unsplittable v]) vs) = vs.
Proof. induction vs as [|v vs IH]; [reflexivity|]. cbn [map]. now rewrite IH, field_str_one. Qed.

Definition elements (p : param) : list str :=
  match p with
  | PAllPos _ => args e
  | PAllIdx n _ => match lookup (vars e) n with Some (VStr s) => [s] | Some (VArr l) => l | None => [] end
  | _ => []
  end.

Lemma expand_param_at p : match p with PAllPos false | PAllIdx _ false => True | _ => False end ->
  expand_param e p = exp_of_array (elements p) false.
Proof. destruct p as [| |[]|? []| |]; intros []; now apply expand_param_list. Qed.

Lemma dq_step_piece j acc k :
  dq_step j acc (exp_of_piece k) = join_fields acc [[Unsplittable (piece_str k)]].
Proof. reflexivity. Qed.

Lemma dq_step_elems j acc vs :
  dq_step j acc (exp_of_array vs false) = join_fields acc (map (fun v => [Unsplittable v]) vs).
Proof. unfold dq_step, exp_of_array. cbn [concatenate fields]. now rewrite map_make_singletons. Qed.

(** dq_array_exact: "${a[@]}" and "$@" are exactly the elements: as many arguments as there are
    elements (none for an empty list), each byte for byte. *)
Theorem dq_array_exact p : match p with PAllPos false | PAllIdx _ false => True | _ => False end ->
  full_expand o e [WDQ [WParam (EPlain p)]] = Ok (elements p).
Proof.
  intros Hp. erewrite dq_full by (reflexivity || discriminate). cbn [fold_left].
  rewrite (expand_param_at p Hp), dq_step_elems, join_fields_nil_l.
  now rewrite filter_nonempty_singletons, field_str_singletons.
Qed.

(** "pre$@suf": only the first and the last element are extended *)
Definition affix (pre : str) (vs : list str) (suf : str) : list str :=
  match vs with
  | [] => [pre ++ suf]
  | [v] => [pre ++ v ++ suf]
  | v :: r => (pre ++ v) :: removelast r ++ [last r [] ++ suf]
  end.

(** [join_fields] glues the first field that comes to the last field that is there *)
Lemma affix_fields pre vs suf :
  map field_str (filter nonempty
    (join_fields (join_fields [[Unsplittable pre]] (map (fun v => [Unsplittable v]) vs))
                 [[Unsplittable suf]])) = affix pre vs suf.
Proof.
  destruct vs as [|v vs]; [cbn; now rewrite app_nil_r|].
  destruct vs as [|v2 vs _] using rev_ind; [cbn; now rewrite !app_nil_r|].
  cbn [map]. change (join_fields [[Unsplittable pre]] ([Unsplittable v] :: ?M))
    with ([Unsplittable pre; Unsplittable v] :: M).
  rewrite map_app. cbn [map]. rewrite app_comm_cons, join_fields_snoc, filter_app, map_app.
  cbn [filter nonempty is_nil negb map app]. rewrite filter_nonempty_singletons, field_str_singletons.
  unfold field_str; cbn [map concat piece_str]. rewrite !app_nil_r.
  unfold affix. destruct (vs ++ [v2]) eqn:E; [now destruct vs|]. rewrite <- E.
  now rewrite removelast_last, last_last.
Qed.

Theorem dq_array_affix p pre suf :
  match p with PAllPos false | PAllIdx _ false => True | _ => False end ->
  full_expand o e [WDQ [WText pre; WParam (EPlain p); WText suf]] = Ok (affix pre (elements p) suf).
Proof.
  intros Hp. erewrite dq_full by (reflexivity || discriminate). cbn [fold_left]. f_equal.
  rewrite (expand_param_at p Hp), !dq_step_piece, dq_step_elems, join_fields_nil_l. apply affix_fields.
Qed.

Theorem dq_cmdsub c :
  full_expand o e [WDQ [WCmd c]] = Ok [trim_trailing_nl (strip_nul (o_cmd o c))].
Proof.
  erewrite dq_full by (reflexivity || discriminate). cbn. now rewrite app_nil_r.
Qed.

(** y=$x and y="$x": [expand_to_str], which expands an assigned value, neither splits nor globs *)
Theorem assign_exact p s : fields (expand_param e p) = [[Splittable s]] ->
  concatenate (expand_param e p) = true ->
  expand_to_str o e [WParam (EPlain p)] = Ok s /\
  expand_to_str o e [WDQ [WParam (EPlain p)]] = Ok s.
Proof.
  intros Hf Hc. unfold expand_to_str. rewrite !basic_expand_one, (dq_scalar_fields p s Hf Hc).
  cbn [expand_piece expand_pexpr rmap bind]. rewrite !coalesce_one. unfold fields_to_string. cbn [fields].
  rewrite Hf. cbn. now rewrite app_nil_r.
Qed.

(** tilde_exact: the directory a tilde prefix stands for (HOME, PWD, OLDPWD, a user's home, a
    directory-stack entry) is one Unsplittable piece: whatever blanks, newlines or glob characters
    it holds, [~] is exactly one argument, that directory — and an assignment copies it exactly *)
Theorem tilde_exact t s : o_tilde o t = Some s ->
  full_expand o e [WTilde t] = Ok [s] /\ expand_to_str o e [WTilde t] = Ok s.
Proof.
  intros H. unfold full_expand, expand_to_str. rewrite basic_expand_one. cbn [expand_piece]. rewrite H.
  cbn [rmap bind]. rewrite coalesce_one. split.
  - rewrite split_glob_uns by (cbn; repeat constructor). cbn. now rewrite app_nil_r.
  - unfold fields_to_string; cbn. now rewrite app_nil_r.
Qed.

(** declarative field splitting: the segments between separator characters, empty ones dropped *)
Fixpoint segments (sep : str) (s : str) : list str :=
  match s with
  | [] => [[]]
  | c :: r => if mem c sep then [] :: segments sep r
              else match segments sep r with h :: t => (c :: h) :: t | [] => [[c]] end
  end.
Definition ifs_split (sep : str) (s : str) : list str := filter nonempty (segments sep s).

Lemma segments_cons sep s : exists h t, segments sep s = h :: t.
Proof.
  induction s as [|c r (h & t & IH)]; cbn; eauto.
  destruct (mem c sep); eauto. rewrite IH; eauto.
Qed.

Definition cur_of (t : str) : wfield := if is_nil t then [] else [Splittable t].
Definition mk1 (s : str) : wfield := [Splittable s].

Lemma push_char_cur t c : push_char (cur_of t) c = cur_of (t ++ [c]).
Proof.
  unfold cur_of. destruct t as [|a t]; cbn; [reflexivity|].
  destruct (t ++ [c]) eqn:E; reflexivity.
Qed.

Lemma cur_of_snoc_nonnil (t : str) c : is_nil (t ++ [c]) = false.
Proof. now destruct t. Qed.

Lemma split_chars_spec sep s : forall t acc h tl, segments sep s = h :: tl ->
  let '(cur, acc') := split_chars sep s (cur_of t) acc in
  flush cur acc' = acc ++ map mk1 (filter nonempty ((t ++ h) :: tl)).
Proof.
  induction s as [|c r IH]; intros t acc h tl Hs; cbn in Hs.
  - inversion Hs; subst. cbn [split_chars]. rewrite app_nil_r, flush_spec. unfold cur_of.
    destruct t; reflexivity.
  - cbn [split_chars]. destruct (mem c sep) eqn:Hm.
    + inversion Hs; subst. destruct (segments_cons sep r) as (h' & t' & Hr).
      specialize (IH [] (flush (cur_of t) acc) h' t' Hr). cbn [cur_of is_nil] in IH.
      change (cur_of []) with (@nil epiece) in IH.
      destruct (split_chars sep r [] (flush (cur_of t) acc)) as [cur acc'].
      rewrite IH, Hr, flush_spec, app_nil_r. unfold cur_of. cbn [app].
      destruct t; cbn; [now rewrite app_nil_r | now rewrite <- app_assoc].
    + destruct (segments_cons sep r) as (h' & t' & Hr). rewrite Hr in Hs. inversion Hs; subst.
      rewrite push_char_cur. specialize (IH (t ++ [c]) acc h' tl Hr).
      destruct (split_chars sep r (cur_of (t ++ [c])) acc) as [cur acc'].
      rewrite IH. now rewrite <- app_assoc.
Qed.

Lemma split_fields_one_splittable v x : fields x = [[Splittable v]] ->
  split_fields e x = map mk1 (ifs_split (ifs_of e) v).
Proof.
  intros Hf. unfold split_fields. rewrite Hf. cbn [split_loop split_pieces].
  destruct (segments_cons (ifs_of e) v) as (h & t & Hs).
  pose proof (split_chars_spec (ifs_of e) v [] [] h t Hs) as H. change (cur_of []) with (@nil epiece) in H.
  destruct (split_chars (ifs_of e) v [] []) as [cur acc']. cbn [split_pieces split_loop].
  rewrite H. unfold ifs_split. now rewrite Hs.
Qed.

Definition glob1 (s : str) : res (list str) :=
  if noglob e then Ok [s] else expand_pathnames o e [Splittable s].

Fixpoint concat_map_res (f : str -> res (list str)) (l : list str) : res (list str) :=
  match l with
  | [] => Ok []
  | s :: r => bind (f s) (fun a => bind (concat_map_res f r) (fun b => Ok (a ++ b)))
  end.

Lemma glob_fields_mk1 l : glob_fields o e (map mk1 l) = concat_map_res glob1 l.
Proof.
  induction l as [|s l IH]; cbn [map glob_fields concat_map_res]; [reflexivity|]. rewrite IH. unfold glob1, mk1.
  destruct (noglob e); [|reflexivity]. now rewrite field_str_one.
Qed.

(** unquoted_only_splits_and_globs: the characters of the value are never quote-removed,
    brace-, tilde- or command-expanded, never parsed: the value is cut at IFS characters and each
    part is handed to pathname expansion as it is. *)
Theorem unquoted_only_splits_and_globs p v : fields (expand_param e p) = [[Splittable v]] ->
  full_expand o e [WParam (EPlain p)] = concat_map_res glob1 (ifs_split (ifs_of e) v).
Proof.
  intros Hf. unfold full_expand. rewrite basic_expand_one. cbn [expand_piece expand_pexpr rmap bind].
  rewrite coalesce_one, (split_fields_one_splittable v) by exact Hf. apply glob_fields_mk1.
Qed.

Corollary unquoted_noglob p v : fields (expand_param e p) = [[Splittable v]] -> noglob e = true ->
  full_expand o e [WParam (EPlain p)] = Ok (ifs_split (ifs_of e) v).
Proof.
  intros Hf Hn. rewrite (unquoted_only_splits_and_globs p v Hf).
  induction (ifs_split (ifs_of e) v) as [|s l IH]; cbn; [reflexivity|].
  unfold glob1 at 1. rewrite Hn. cbn. now rewrite IH.
Qed.

End WithOracles.

Arguments expand_pieces_nonnil {o e dq p r xs} _.

Lemma drop_leading_nl_spec s : exists n, s = repeat NL n ++ drop_leading_nl s /\
  match drop_leading_nl s with c :: _ => c <> NL | [] => True end.
Proof.
  induction s as [|c r (n & H1 & H2)]; cbn.
  - exists O; split; auto.
  - destruct (N.eqb c NL) eqn:E.
    + apply N.eqb_eq in E; subst. exists (S n); cbn; split; [now f_equal | exact H2].
    + exists O; cbn; split; [reflexivity|]. now apply N.eqb_neq.
Qed.

(** strip_exactly_trailing_newlines: the result is the output with some number of newlines
    removed from the end, and does not itself end in a newline *)
Theorem trim_trailing_nl_spec s : exists n, s = trim_trailing_nl s ++ repeat NL n /\
  (forall t, trim_trailing_nl s <> t ++ [NL]).
Proof.
  unfold trim_trailing_nl. destruct (drop_leading_nl_spec (rev s)) as (n & H1 & H2).
  exists n. split.
  - apply (f_equal (@rev char)) in H1. rewrite rev_involutive, rev_app_distr in H1.
    rewrite H1 at 1. f_equal. clear. induction n; cbn; [reflexivity|]. now rewrite IHn, <- repeat_cons.
  - intros t Ht. apply (f_equal (@rev char)) in Ht. rewrite rev_involutive, rev_app_distr in Ht. cbn in Ht.
    rewrite Ht in H2. now apply H2.
Qed.

Lemma strip_nul_spec s : ~ In 0%N s -> strip_nul s = s.
Proof.
  induction s as [|c r IH]; cbn; intros H; [reflexivity|].
  destruct (N.eqb c 0) eqn:E; [apply N.eqb_eq in E; subst; tauto|]. cbn. f_equal. tauto.
Qed.

(** Non-vacuity: a concrete environment in which the hypotheses hold and the difference
    between quoted and unquoted is visible (directory with entries the value matches,
    nullglob on, value with blanks and a star) *)
From BV Require Import Expand.GlobRef.
Definition ex_names : list str := [[97]; [97; 98]; [42]]%N.                 (* a ab '*' *)
Definition ex_oracles : oracles :=
  mkOr (fun _ => []) (fun _ => []) (fun _ => None) (fun s => s) req (dirglob ex_names).
Definition ex_value : str := [32; 42; 32; 97; 42]%N.                          (* " * a*" *)
Definition ex_env : env := mkEnv [([120%N], VStr ex_value)] [] None false true false false false.

Lemma ex_quoted : full_expand ex_oracles ex_env [WDQ [WParam (EPlain (PNamed [120%N]))]] = Ok [ex_value].
Proof. apply dq_named_exact. reflexivity. Qed.

Lemma ex_unquoted : full_expand ex_oracles ex_env [WParam (EPlain (PNamed [120%N]))] =
  Ok [[42]; [97]; [97; 98]; [97]; [97; 98]]%N.
Proof. vm_compute. reflexivity. Qed.
