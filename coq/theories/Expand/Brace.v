(** Brace expansion.
    Model: brush-core/src/braceexpansion.rs [generate_and_combine_brace_expansions] over the tree
    produced by brush_parser::word::parse_brace_expansions, and the string-level step of
    expansion.rs [brace_expand_if_needed]: the products are JOINED WITH A BLANK into one string
    which is then parsed and expanded as one word.
    Spec (bash manual, "Brace Expansion"): preamble x alternatives x postscript, left to right,
    nested; each result is a separate word, whatever IFS is. *)
From BV Require Import Base.Prelude gen.ExpandGen Expand.Model Expand.Proofs.

Inductive bnode := BText (s : str) | BExpr (ms : list bmember)
with bmember := BNum (a b i : Z) | BChr (a b : char) (i : Z) | BChild (l : list bnode).

(** * Sequences ({x..y[..incr]}), shared by model and specification; validated against bash by
    the correspondence.  (Overflow panics of the Rust iteration are C01's subject.) *)
Definition step_of (i : Z) : Z := let a := Z.abs i in if a =? 0 then 1 else a.
Definition num_seq (a b i : Z) : list Z :=
  let s := step_of i in
  if a <=? b then map (fun k => a + Z.of_nat k * s) (seq 0 (Z.to_nat ((b - a) / s) + 1))
  else map (fun k => a - Z.of_nat k * s) (seq 0 (Z.to_nat ((a - b) / s) + 1)).
Definition chr_seq (a b : char) (i : Z) : list str :=
  map (fun z => [Z.to_N z]) (num_seq (Z.of_N a) (Z.of_N b) i).

(** itertools::multi_cartesian_product: the leftmost component varies slowest *)
Fixpoint mcp (ls : list (list str)) : list (list str) :=
  match ls with
  | [] => [[]]
  | l :: r => flat_map (fun a => map (cons a) (mcp r)) l
  end.

Fixpoint gen_node (n : bnode) : list str :=
  match n with
  | BText t => [t]
  | BExpr ms => (fix gm (ms : list bmember) : list str :=
                   match ms with [] => [] | m :: r => gen_member m ++ gm r end) ms
  end
with gen_member (m : bmember) : list str :=
  match m with
  | BNum a b i => map show_Z (num_seq a b i)
  | BChr a b i => chr_seq a b i
  | BChild l => map (@concat char)
                  (mcp ((fix gl (l : list bnode) : list (list str) :=
                           match l with [] => [] | n :: r => gen_node n :: gl r end) l))
  end.

Definition gen_nodes (l : list bnode) : list str := map (@concat char) (mcp (map gen_node l)).

(** [may_contain_braces_to_expand] *)
Fixpoint may_contain_go (s : str) (last_dollar last_esc saw_open saw_close : bool) : bool :=
  match s with
  | [] => saw_open && saw_close
  | c :: r =>
      let is_open := negb last_dollar && N.eqb c 123 in
      let is_close := negb last_dollar && N.eqb c 125 in
      if is_close && saw_open then true
      else may_contain_go r (negb last_esc && N.eqb c 36) (N.eqb c 92)
                          (saw_open || is_open) (saw_close || is_close)
  end.
Definition may_contain_braces (s : str) : bool := may_contain_go s false false false false.

(** the join of [brace_expand_if_needed]; what happens to empty products is read from the Rust
    source on every run (gen/ExpandGen.v) *)
Definition DQUOTE2 : str := [34; 34]%N.
Definition brace_join (ws : list str) : str :=
  join_with [SP] (if brace_keeps_empty then map (fun w => if is_nil w then DQUOTE2 else w) ws
                  else filter nonempty ws).

(** the text handed to the word parser: [tree] is the result of parse_brace_expansions
    (None: no brace expression / parse error) *)
Definition brace_expand_text (enabled : bool) (text : str) (tree : option (list bnode)) : str :=
  if negb enabled || negb (may_contain_braces text) then text
  else match tree with
       | None => text
       | Some ns => brace_join (gen_nodes ns)
       end.

Fixpoint spec_node (n : bnode) : list str :=
  match n with
  | BText t => [t]
  | BExpr ms => (fix alts (ms : list bmember) : list str :=
                   match ms with [] => [] | m :: r => spec_member m ++ alts r end) ms
  end
with spec_member (m : bmember) : list str :=
  match m with
  | BNum a b i => map show_Z (num_seq a b i)
  | BChr a b i => chr_seq a b i
  | BChild l => (fix words (l : list bnode) : list str :=
                   match l with
                   | [] => [[]]
                   | n :: r => flat_map (fun a => map (app a) (words r)) (spec_node n)
                   end) l
  end.

Fixpoint spec_words (l : list bnode) : list str :=
  match l with
  | [] => [[]]
  | n :: r => flat_map (fun a => map (app a) (spec_words r)) (spec_node n)
  end.

(** * brace_product_order: the model's products are the specification's words, in order *)

Fixpoint sprod (ls : list (list str)) : list str :=
  match ls with
  | [] => [[]]
  | l :: r => flat_map (fun a => map (app a) (sprod r)) l
  end.

Lemma mcp_sprod ls : map (@concat char) (mcp ls) = sprod ls.
Proof.
  induction ls as [|l r IH]; [reflexivity|]. cbn [mcp sprod]. rewrite <- IH.
  generalize (mcp r) as m. intros m. clear IH.
  induction l as [|a l IHl]; [reflexivity|].
  cbn [flat_map]. rewrite map_app. f_equal; [|exact IHl]. now rewrite !map_map.
Qed.

Section NestedInd.
Variables (P : bnode -> Prop) (Q : bmember -> Prop).
Hypothesis HText : forall s, P (BText s).
Hypothesis HExpr : forall ms, Forall Q ms -> P (BExpr ms).
Hypothesis HNum : forall a b i, Q (BNum a b i).
Hypothesis HChr : forall a b i, Q (BChr a b i).
Hypothesis HChild : forall l, Forall P l -> Q (BChild l).

Fixpoint bnode_ind2 (n : bnode) : P n :=
  match n with
  | BText s => HText s
  | BExpr ms => HExpr ms ((fix go (ms : list bmember) : Forall Q ms :=
                             match ms with
                             | [] => Forall_nil _
                             | m :: r => Forall_cons _ (bmember_ind2 m) (go r)
                             end) ms)
  end
with bmember_ind2 (m : bmember) : Q m :=
  match m with
  | BNum a b i => HNum a b i
  | BChr a b i => HChr a b i
  | BChild l => HChild l ((fix go (l : list bnode) : Forall P l :=
                             match l with
                             | [] => Forall_nil _
                             | n :: r => Forall_cons _ (bnode_ind2 n) (go r)
                             end) l)
  end.
End NestedInd.

Lemma sprod_spec_words l : Forall (fun n => gen_node n = spec_node n) l ->
  sprod (map gen_node l) = spec_words l.
Proof.
  induction l as [|n r IH]; intros H; [reflexivity|]. inversion H; subst.
  cbn [map sprod spec_words]. now rewrite IH, H2.
Qed.

Lemma gen_node_spec n : gen_node n = spec_node n.
Proof.
  apply (bnode_ind2 (fun n => gen_node n = spec_node n) (fun m => gen_member m = spec_member m)).
  - reflexivity.
  - intros ms H. cbn [gen_node spec_node]. induction H as [|m r Hm Hr IH]; [reflexivity|]. now rewrite Hm, IH.
  - reflexivity.
  - reflexivity.
  - intros l H. cbn [gen_member spec_member].
    assert (E : (fix gl (l0 : list bnode) : list (list str) :=
                   match l0 with [] => [] | n0 :: r => gen_node n0 :: gl r end) l = map gen_node l).
    { clear. induction l; cbn; congruence. }
    rewrite E, mcp_sprod. rewrite (sprod_spec_words l H).
    clear. induction l as [|n r IH]; [reflexivity|]. cbn [spec_words]. now rewrite IH.
Qed.

Theorem brace_product_order l : gen_nodes l = spec_words l.
Proof.
  unfold gen_nodes. rewrite mcp_sprod. apply sprod_spec_words.
  apply Forall_forall. intros n _. apply gen_node_spec.
Qed.

Section Fields.
Variable e : env.

Lemma segments_word_sep sep (w rest : str) :
  (forall c, In c w -> mem c sep = false) -> mem SP sep = true ->
  segments sep (w ++ SP :: rest) = w :: segments sep rest.
Proof.
  intros Hw Hsp. induction w as [|c r IH]; cbn [app segments].
  - now rewrite Hsp.
  - rewrite (Hw c (or_introl eq_refl)). rewrite IH by (intros c' Hc'; apply Hw; now right). reflexivity.
Qed.

Lemma segments_word_end sep (w : str) :
  (forall c, In c w -> mem c sep = false) -> segments sep w = [w].
Proof.
  intros Hw. induction w as [|c r IH]; [reflexivity|]. cbn [segments].
  rewrite (Hw c (or_introl eq_refl)). rewrite IH by (intros c' Hc'; apply Hw; now right). reflexivity.
Qed.

Definition clean_word (sep : str) (w : str) : Prop := w <> [] /\ forall c, In c w -> mem c sep = false.

Lemma ifs_split_join sep ws : mem SP sep = true -> Forall (clean_word sep) ws ->
  ifs_split sep (join_with [SP] ws) = ws.
Proof.
  intros Hsp H. unfold ifs_split. induction H as [|w r [Hne Hw] Hr IH]; [reflexivity|].
  destruct r as [|w2 r].
  - cbn [join_with]. rewrite segments_word_end by exact Hw. cbn. destruct w; [congruence|reflexivity].
  - change (join_with [SP] (w :: w2 :: r)) with (w ++ SP :: join_with [SP] (w2 :: r)).
    rewrite segments_word_sep by assumption. cbn [filter]. rewrite IH.
    destruct w; [congruence|reflexivity].
Qed.

(** brace_plain_blank_ifs: when IFS contains the blank, products that are non-empty and free of
    IFS characters come out as one field each — the join-and-resplit detour is invisible.
    (For products without expansion characters [basic_expand] yields [exp_of_str] of the joined
    text: the no-expansion-characters short cut.) *)
Theorem brace_plain_blank_ifs ws : mem SP (ifs_of e) = true -> Forall (clean_word (ifs_of e)) ws ->
  split_fields e (exp_of_str (join_with [SP] ws)) = map mk1 ws.
Proof.
  intros Hsp H. rewrite (split_fields_one_splittable e (join_with [SP] ws)) by reflexivity.
  now rewrite ifs_split_join.
Qed.

End Fields.

(** brace_refuted: IFS=newline and the word {a,b}: bash (the specification) gives the two words
    a and b; the model (the code) joins them with a blank, finds no IFS character in "a b" and
    delivers ONE field "a b". *)
Definition ex_brace_tree : list bnode := [BExpr [BChild [BText [97%N]]; BChild [BText [98%N]]]].
Definition ex_nl_env : env := mkEnv [] [] (Some [NL]) false false false false false.

Theorem brace_refuted :
  spec_words ex_brace_tree = [[97]; [98]]%N /\
  split_fields ex_nl_env (exp_of_str (brace_expand_text true [123; 97; 44; 98; 125]%N (Some ex_brace_tree)))
  = [[Splittable [97; 32; 98]%N]].
Proof. split; vm_compute; reflexivity. Qed.
