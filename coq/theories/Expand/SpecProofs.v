(** C05: the piece/field model of Expand/Model.v computes the fields of the stream
    specification of Expand/SplitSpec.v — for every environment whose IFS is made of blanks,
    tabs and newlines (or unset, or empty), every oracle, and every brace-free word of the
    fragment [frag] outside the recorded class [dq_known].  Also, because it is stated over
    [tagged], C04's split_only_removes_unquoted_ifs, which needs no condition on IFS. *)
From BV Require Import Base.Prelude Expand.Model Expand.SplitSpec Expand.Proofs.

(** [tagged]: a field of the model as the specification writes fields.  [flat]: the model's
    fields as the specification's stream, a [Brk] between fields. *)

Definition tag_piece (p : epiece) : tfield :=
  match p with
  | Unsplittable s => map (fun c => (c, true)) s
  | Splittable s => map (fun c => (c, false)) s
  end.
Definition tagged (f : wfield) : tfield := flat_map tag_piece f.

Definition flat_piece (p : epiece) : list item :=
  match p with Unsplittable s => quoted s | Splittable s => chars Exp s end.
Definition flat_field (f : wfield) : list item := flat_map flat_piece f.
Definition flat (fs : list wfield) : list item := intercalate [Brk] (map flat_field fs).

Definition res_rel {A B} (R : A -> B -> Prop) (m : res A) (s : res B) : Prop :=
  match m, s with
  | Ok a, Ok b => R a b
  | Err c, Err c' => c = c'
  | _, _ => False
  end.

Lemma res_rel_imp {A B} (R R' : A -> B -> Prop) m s :
  (forall a b, R a b -> R' a b) -> res_rel R m s -> res_rel R' m s.
Proof. destruct m, s; cbn; auto. Qed.

Lemma res_rel_map {A B A' B'} (R : A -> B -> Prop) (R' : A' -> B' -> Prop) (f : A -> A') (g : B -> B') m s :
  (forall a b, m = Ok a -> s = Ok b -> R a b -> R' (f a) (g b)) -> res_rel R m s ->
  res_rel R' (rmap f m) (rmap g s).
Proof. destruct m, s; cbn; auto. Qed.

Lemma nonnil_match {A} (c d : list A) : c <> [] -> match c with [] => d | _ => c end = c.
Proof. destruct c; congruence. Qed.

Lemma forallb_in {A} (f : A -> bool) l x : forallb f l = true -> In x l -> f x = true.
Proof. intros H. exact (proj1 (forallb_forall f l) H x). Qed.

Lemma existsb_false_in {A} (f : A -> bool) l x : existsb f l = false -> In x l -> f x = false.
Proof.
  intros H Hin. destruct (f x) eqn:E; [|reflexivity].
  rewrite <- H. symmetry. apply existsb_exists. eauto.
Qed.

Lemma flat_field_app a b : flat_field (a ++ b) = flat_field a ++ flat_field b.
Proof. unfold flat_field. now rewrite flat_map_app. Qed.

Lemma tagged_app a b : tagged (a ++ b) = tagged a ++ tagged b.
Proof. unfold tagged. now rewrite flat_map_app. Qed.

Lemma flat_one f : flat [f] = flat_field f.
Proof. reflexivity. Qed.

Lemma flat_cons_ne x ys : ys <> [] -> flat (x :: ys) = flat_field x ++ Brk :: flat ys.
Proof. destruct ys; [congruence | reflexivity]. Qed.

Lemma flat_snoc_merge a l f r : flat (a ++ (l ++ f) :: r) = flat (a ++ [l]) ++ flat (f :: r).
Proof.
  induction a as [|x a IH]; cbn [app].
  - destruct r as [|g r]; [now rewrite !flat_one, flat_field_app|].
    rewrite !flat_cons_ne by discriminate. rewrite flat_one, flat_field_app. now rewrite <- app_assoc.
  - rewrite !flat_cons_ne by (now destruct a). rewrite IH. now rewrite <- app_assoc.
Qed.

Lemma flat_join_fields a b : flat (join_fields a b) = flat a ++ flat b.
Proof.
  destruct b as [|f r]; [cbn; now rewrite app_nil_r|].
  destruct a as [|x a]; [reflexivity|].
  destruct (exists_last (l := x :: a)) as (a' & l & ->); [discriminate|].
  rewrite join_fields_snoc. apply flat_snoc_merge.
Qed.

(** [coalesce] and the loop of a double-quoted string both have this form *)
Lemma flat_fold_join (g : expansion -> list wfield) xs : forall acc,
  flat (fold_left (fun a x => join_fields a (g x)) xs acc) =
  flat acc ++ concat (map (fun x => flat (g x)) xs).
Proof.
  induction xs as [|x xs IH]; intros acc; cbn [fold_left map concat]; [now rewrite app_nil_r|].
  now rewrite IH, flat_join_fields, <- app_assoc.
Qed.

Lemma fields_fold_coalesce xs : forall acc,
  fields (fold_left coalesce_step xs acc) = fold_left (fun a x => join_fields a (fields x)) xs (fields acc).
Proof. induction xs as [|x xs IH]; intros acc; [reflexivity|]. exact (IH _). Qed.

Lemma fields_coalesce xs : fields (coalesce xs) = fold_left (fun a x => join_fields a (fields x)) xs [].
Proof. exact (fields_fold_coalesce xs exp_default). Qed.

Lemma flat_coalesce xs acc :
  flat (fields (fold_left coalesce_step xs acc)) =
  flat (fields acc) ++ concat (map (fun x => flat (fields x)) xs).
Proof. rewrite fields_fold_coalesce. apply flat_fold_join. Qed.

Lemma tagged_push_char cur c : tagged (push_char cur c) = tagged cur ++ [(c, false)].
Proof.
  induction cur as [|p r IH]; [reflexivity|].
  destruct r as [|p2 r].
  - destruct p as [s|s]; cbn; [now rewrite app_nil_r|]. rewrite !app_nil_r. now rewrite map_app.
  - assert (E : push_char (p :: p2 :: r) c = p :: push_char (p2 :: r) c) by (destruct p; reflexivity).
    rewrite E. unfold tagged in *. cbn [flat_map]. rewrite IH. now rewrite app_assoc.
Qed.

Lemma push_char_nonempty cur c : nonempty (push_char cur c) = true.
Proof. destruct cur as [|[s|s] [|p r]]; reflexivity. Qed.

(** split_only_removes_unquoted_ifs (C04), for every IFS: the fields that come out of
    [split_fields] are the tagged characters that went in, in order, minus the unquoted ones in IFS. *)

Definition keep (sep : str) (cq : char * bool) : bool := snd cq || negb (mem (fst cq) sep).

Definition all_tagged (fs : list wfield) : list (char * bool) := concat (map tagged fs).

Lemma all_tagged_flush cur acc : all_tagged (flush cur acc) = all_tagged acc ++ tagged cur.
Proof.
  unfold all_tagged. rewrite flush_spec. destruct cur; cbn [nonempty is_nil negb].
  - now rewrite !app_nil_r.
  - rewrite map_app, concat_app. cbn. now rewrite app_nil_r.
Qed.

Lemma filter_keep_quoted sep s : filter (keep sep) (map (fun c => (c, true)) s) = map (fun c => (c, true)) s.
Proof. induction s; cbn; congruence. Qed.

(** the tagged characters held by a state of the splitting loops *)
Definition kept (st : wfield * list wfield) : list (char * bool) := all_tagged (snd st) ++ tagged (fst st).

Lemma chars_keep sep s : forall cur acc,
  kept (split_chars sep s cur acc) = kept (cur, acc) ++ filter (keep sep) (tag_piece (Splittable s)).
Proof.
  induction s as [|c r IH]; intros cur acc; cbn [split_chars tag_piece map filter].
  - now rewrite app_nil_r.
  - unfold keep at 1; cbn [fst snd orb]. destruct (mem c sep); cbn [negb]; rewrite IH; unfold kept; cbn [fst snd].
    + now rewrite all_tagged_flush, app_nil_r.
    + now rewrite tagged_push_char, <- !app_assoc.
Qed.

Lemma pieces_keep sep f : forall cur acc,
  kept (split_pieces sep f cur acc) = kept (cur, acc) ++ filter (keep sep) (tagged f).
Proof.
  induction f as [|p r IH]; intros cur acc; cbn [split_pieces].
  - cbn. now rewrite app_nil_r.
  - change (tagged (p :: r)) with (tag_piece p ++ tagged r). rewrite filter_app, app_assoc.
    destruct p as [s|s].
    + rewrite IH. unfold kept; cbn [fst snd tag_piece]. rewrite tagged_app, filter_keep_quoted. cbn.
      now rewrite app_nil_r, app_assoc.
    + rewrite <- chars_keep. destruct (split_chars sep s cur acc) as [cur1 acc1]. apply IH.
Qed.

Lemma loop_keep sep fs : forall acc,
  all_tagged (split_loop sep fs acc) = all_tagged acc ++ filter (keep sep) (all_tagged fs).
Proof.
  induction fs as [|f r IH]; intros acc; cbn [split_loop].
  - cbn. now rewrite app_nil_r.
  - pose proof (pieces_keep sep f [] acc) as H. destruct (split_pieces sep f [] acc) as [cur acc'].
    rewrite IH, all_tagged_flush. change (all_tagged (f :: r)) with (tagged f ++ all_tagged r).
    rewrite filter_app, app_assoc. f_equal. rewrite <- (app_nil_r (all_tagged acc)). exact H.
Qed.

Theorem split_only_removes_unquoted_ifs e x :
  all_tagged (split_fields e x) = filter (keep (ifs_of e)) (all_tagged (fields x)).
Proof. unfold split_fields. now rewrite loop_keep. Qed.

(** Run on the stream of the model's fields, the specification's cutting machine is split_fields:
    [cut_sim] relates the state of the model's splitting loops to that of the machine.  It says
    nothing of [s_d], which is read only at an IFS character that is not white space; [ifs_ws]
    rules those out. *)

Definition ifs_ws (sep : str) : Prop := forall c, mem c sep = true -> is_ifs_ws c = true.

Definition cut_sim (acc : list wfield) (cur : wfield) (s : sst) : Prop :=
  s_acc s = map tagged acc /\ s_cur s = tagged cur /\ s_has s = nonempty cur.

Section Cut.
Variable sep : str.
Hypothesis Hws : ifs_ws sep.

Lemma run_app s a b : run sep s (a ++ b) = run sep (run sep s a) b.
Proof. unfold run. apply fold_left_app. Qed.

Lemma run_cons s i l : run sep s (i :: l) = run sep (step sep s i) l.
Proof. reflexivity. Qed.

Lemma cut_sim_close acc cur st d : cut_sim acc cur st -> cut_sim (flush cur acc) [] (close st d).
Proof.
  intros (Ha & Hc & Hh). unfold cut_sim, close; cbn [s_acc s_cur s_has]. rewrite flush_spec, Hh.
  destruct (nonempty cur); [|rewrite app_nil_r; auto]. rewrite Ha, Hc, map_app. auto.
Qed.

Lemma cut_sim_chars s : forall cur acc st, cut_sim acc cur st ->
  let '(cur', acc') := split_chars sep s cur acc in cut_sim acc' cur' (run sep st (chars Exp s)).
Proof.
  induction s as [|c r IH]; intros cur acc st HR; cbn [split_chars chars map].
  - exact HR.
  - rewrite run_cons.
    cbn [step]. destruct (mem c sep) eqn:Hm.
    + rewrite (Hws c Hm). apply IH. destruct (s_has st) eqn:Hs; [now apply cut_sim_close|].
      destruct HR as (Ha & Hc & Hh). rewrite Hs in Hh. destruct cur; [|discriminate]. now split.
    + destruct HR as (Ha & Hc & Hh). apply IH. unfold cut_sim, push; cbn [s_acc s_cur s_has].
      rewrite tagged_push_char, push_char_nonempty, Hc. auto.
Qed.

Lemma run_chars_quo s : forall a c, run sep (mkSt a c true DNone) (chars Quo s) =
  mkSt a (c ++ map (fun x => (x, true)) s) true DNone.
Proof.
  induction s as [|x r IH]; intros a c; cbn [chars map].
  - now rewrite app_nil_r.
  - rewrite run_cons. fold (chars Quo r).
    cbn [step]. unfold push; cbn [s_acc s_cur]. rewrite IH. now rewrite <- app_assoc.
Qed.

Lemma run_quoted s st : run sep st (quoted s) =
  mkSt (s_acc st) (s_cur st ++ map (fun x => (x, true)) s) true DNone.
Proof.
  unfold quoted. rewrite run_cons.
  cbn [step]. apply run_chars_quo.
Qed.

Lemma cut_sim_pieces f : forall cur acc st, cut_sim acc cur st ->
  let '(cur', acc') := split_pieces sep f cur acc in cut_sim acc' cur' (run sep st (flat_field f)).
Proof.
  induction f as [|p r IH]; intros cur acc st HR; cbn [split_pieces flat_field flat_map].
  - exact HR.
  - rewrite run_app. destruct p as [s|s]; cbn [flat_piece].
    + apply IH. rewrite run_quoted. destruct HR as (Ha & Hc & Hh). unfold cut_sim; cbn [s_acc s_cur s_has].
      rewrite tagged_app, Hc. cbn. rewrite app_nil_r. repeat split; auto.
      destruct cur; reflexivity.
    + pose proof (cut_sim_chars s cur acc st HR) as H.
      destruct (split_chars sep s cur acc) as [cur' acc']. now apply IH.
Qed.

Lemma finish_cut_sim acc cur st : cut_sim acc cur st -> finish st = map tagged (flush cur acc).
Proof.
  intros H. exact (proj1 (cut_sim_close acc cur st DNone H)).
Qed.

Lemma cut_sim_loop fs : forall acc st, cut_sim acc [] st ->
  finish (run sep st (flat fs)) = map tagged (split_loop sep fs acc).
Proof.
  induction fs as [|f r IH]; intros acc st HR.
  - unfold flat, run. cbn [map intercalate fold_left split_loop]. rewrite (finish_cut_sim acc [] st HR). reflexivity.
  - cbn [split_loop]. pose proof (cut_sim_pieces f [] acc st HR) as H.
    destruct (split_pieces sep f [] acc) as [cur acc'].
    destruct r as [|g r].
    + rewrite flat_one. cbn [split_loop]. now apply finish_cut_sim.
    + rewrite flat_cons_ne by discriminate. rewrite run_app.
      rewrite run_cons. cbn [step].
      apply IH. now apply cut_sim_close.
Qed.

Lemma cut_flat fs : cut sep (flat fs) = map tagged (split_loop sep fs []).
Proof. unfold cut. apply cut_sim_loop. repeat split. Qed.

Definition equiv (l1 l2 : list item) : Prop := forall st, run sep st l1 = run sep st l2.

Lemma equiv_refl l : equiv l l.
Proof. intros st; reflexivity. Qed.

Lemma equiv_app a a' b b' : equiv a a' -> equiv b b' -> equiv (a ++ b) (a' ++ b').
Proof. intros H1 H2 st. now rewrite !run_app, H1, H2. Qed.

Lemma equiv_trans a b c : equiv a b -> equiv b c -> equiv a c.
Proof. intros H1 H2 st. now rewrite H1, H2. Qed.

Lemma equiv_sym a b : equiv a b -> equiv b a.
Proof. intros H st. now rewrite H. Qed.

Lemma equiv_lit s : forallb (fun c => negb (mem c sep)) s = true -> equiv (chars Lit s) (chars Exp s).
Proof.
  induction s as [|c r IH]; intros H st; [reflexivity|].
  cbn in H. apply andb_true_iff in H as [Hc Hr]. apply negb_true_iff in Hc.
  cbn [chars map]. rewrite !run_cons.
  cbn [step]. rewrite Hc. apply (IH Hr).
Qed.

Lemma equiv_quoted_app a b : equiv (quoted a ++ quoted b) (quoted (a ++ b)).
Proof.
  intros st. rewrite run_app, !run_quoted. cbn [s_acc s_cur]. now rewrite map_app, app_assoc.
Qed.

Lemma equiv_concat {A} (F : A -> list item) xs ls :
  Forall2 (fun x l => equiv (F x) l) xs ls -> equiv (concat (map F xs)) (concat ls).
Proof.
  induction 1 as [|x l xs ls H _ IH]; [apply equiv_refl|].
  cbn [map concat]. now apply equiv_app.
Qed.

End Cut.

Section Params.
Variable o : oracles.
Variable e : env.

Lemma flat_singletons (k : str -> epiece) vs :
  flat (map (fun v => [k v]) vs) = intercalate [Brk] (map (fun v => flat_piece (k v)) vs).
Proof. unfold flat. rewrite map_map. f_equal. apply map_ext. intros v. cbn. apply app_nil_r. Qed.

Lemma flat_exp_of_piece k : flat (fields (exp_of_piece k)) = flat_piece k.
Proof. apply app_nil_r. Qed.

Definition to_append (j : str) (x : expansion) : list wfield :=
  if concatenate x then
    let c := intersperse_flat [Unsplittable j] (map (map make_unsplittable) (fields x)) in
    [match c with [] => [Splittable []] | _ => c end]
  else fields x.

Lemma dq_step_eq j acc x :
  dq_step j acc x = join_fields acc (map (map make_unsplittable) (to_append j x)).
Proof. reflexivity. Qed.

(** what one piece inside double quotes adds to the stream *)
Definition dq_out (j : str) (x : expansion) : list item :=
  flat (map (map make_unsplittable) (to_append j x)).

Lemma dq_out_single j x k : fields x = [[k]] -> concatenate x = true ->
  dq_out j x = quoted (piece_str k).
Proof.
  intros Hf Hc. unfold dq_out, to_append. rewrite Hc, Hf. cbn. now rewrite app_nil_r.
Qed.

Lemma flat_dq_fold j xs acc :
  flat (fold_left (dq_step j) xs acc) = flat acc ++ concat (map (dq_out j) xs).
Proof. exact (flat_fold_join (fun x => map (map make_unsplittable) (to_append j x)) xs acc). Qed.

Definition quoted1 (v : str) : wfield := [Unsplittable v].

Lemma star_equiv sep j v r :
  equiv sep (flat_field (map make_unsplittable (intersperse_flat [Unsplittable j] (map quoted1 (v :: r)))))
            (quoted (join_with j (v :: r))).
Proof.
  revert v. induction r as [|v2 r IH]; intros v.
  - cbn. rewrite app_nil_r. apply equiv_refl.
  - change (intersperse_flat [Unsplittable j] (map quoted1 (v :: v2 :: r))) with
      (quoted1 v ++ [Unsplittable j] ++ intersperse_flat [Unsplittable j] (map quoted1 (v2 :: r))).
    rewrite !map_app, !flat_field_app.
    change (join_with j (v :: v2 :: r)) with (v ++ j ++ join_with j (v2 :: r)).
    eapply equiv_trans.
    + apply equiv_app; [apply equiv_refl|]. apply equiv_app; [apply equiv_refl | apply IH].
    + cbn [quoted1 map make_unsplittable piece_str flat_field flat_map flat_piece]. rewrite !app_nil_r.
      eapply equiv_trans; [apply equiv_app; [apply equiv_refl | apply equiv_quoted_app]|].
      apply equiv_quoted_app.
Qed.

(** the three loops of the specification (word, double-quoted string, default word) are this one *)
Fixpoint items (top dq : bool) (w : list wpiece) : res (list item) :=
  match w with
  | [] => Ok []
  | p :: r => match piece_items o e top dq p with
              | Ok a => match items top dq r with Ok b => Ok (a ++ b) | Err c => Err c end
              | Err c => Err c
              end
  end.

(** a copy of [items top true] ([dq_inner_eq]); [dq_known] below is stated with it *)
Fixpoint dq_inner (top : bool) (ps : list wpiece) : res (list item) :=
  match ps with
  | [] => Ok []
  | p :: r => match piece_items o e top true p with
              | Ok a => match dq_inner top r with Ok b => Ok (a ++ b) | Err c => Err c end
              | Err c => Err c
              end
  end.

Lemma word_items_eq w : word_items o e w = items true false w.
Proof. induction w as [|p r IH]; cbn; [reflexivity|]. now rewrite IH. Qed.

Lemma dq_inner_eq top ps : dq_inner top ps = items top true ps.
Proof. induction ps as [|p r IH]; cbn; [reflexivity|]. now rewrite IH. Qed.

(** the loop over pieces inside [piece_items] / [pexpr_items] *)
Lemma items_fix_eq top dq l :
  (fix go (w : list wpiece) : res (list item) :=
     match w with
     | [] => Ok []
     | x :: r => match piece_items o e top dq x with
                 | Ok a => match go r with Ok b => Ok (a ++ b) | Err c => Err c end
                 | Err c => Err c
                 end
     end) l = items top dq l.
Proof.
  induction l as [|p l IH]; [reflexivity|]. cbn [items].
  destruct (piece_items o e top dq p); [now rewrite IH | reflexivity].
Qed.

Lemma piece_items_dq top dq ps :
  piece_items o e top dq (WDQ ps) =
  match ps with
  | [] => Ok [QNull]
  | _ => rmap (fun inner => if existsb (zero_list_piece e) ps && only_marks inner then [] else inner)
              (items top true ps)
  end.
Proof.
  cbn [piece_items]. destruct ps as [|p r]; [reflexivity|].
  exact (f_equal (rmap _) (items_fix_eq top true (p :: r))).
Qed.

(** ${#p}: the model counts characters (the code after repair 68104b7) *)
Lemma poly_len_eq p : poly_len (expand_param e p) = len_of e p.
Proof.
  unfold len_of. destruct (is_list_param p) eqn:Hl.
  - rewrite (expand_param_list e p Hl). unfold poly_len, exp_of_array; cbn [from_array fields]. apply map_length.
  - rewrite (expand_param_nonlist e p Hl). unfold poly_len; cbn [from_array fields fold_left].
    now rewrite field_str_one.
Qed.

Lemma pieces_rel (R : expansion -> list item -> Prop) top dq dq' w :
  (forall p, In p w -> res_rel R (expand_piece o e dq p) (piece_items o e top dq' p)) ->
  res_rel (fun xs l => exists ls, l = concat ls /\ Forall2 R xs ls)
          (expand_pieces o e dq w) (items top dq' w).
Proof.
  induction w as [|p r IH]; intros H; cbn [expand_pieces items bind].
  - exists []. split; constructor.
  - pose proof (H p (or_introl eq_refl)) as Hp. specialize (IH (fun q Hq => H q (or_intror Hq))).
    destruct (expand_piece o e dq p) as [x|c], (piece_items o e top dq' p) as [a|c'];
      cbn [res_rel bind] in Hp |- *; try contradiction; [|exact Hp].
    destruct (expand_pieces o e dq r) as [xs|c], (items top dq' r) as [b|c'];
      cbn [res_rel bind] in IH |- *; try contradiction; [|exact IH].
    destruct IH as (ls & -> & H2). exists (a :: ls). split; [reflexivity | now constructor].
Qed.

(** the recorded class: a zero-element "$@" next to other, all-null, quoted material *)
Definition dq_known (p : wpiece) : bool :=
  match p with
  | WDQ ps => match dq_inner true ps with
              | Ok inner => existsb (zero_list_piece e) ps && only_marks inner && negb (is_nil inner)
              | Err _ => false
              end
  | _ => false
  end.
Definition known_at_null (w : word) : bool := existsb dq_known w.

Definition lit_ok (sep : str) (w : word) : bool :=
  forallb (fun p => match p with WText s => forallb (fun c => negb (mem c sep)) s | _ => true end) w.

(** a piece in double quotes / outside: the model's stream cuts like the specification's *)
Definition sim_dq (sep : str) (m : res expansion) (s : res (list item)) : Prop :=
  res_rel (fun x l => equiv sep (dq_out (ifs_joiner e) x) l) m s.
Definition sim_unq (sep : str) (m : res expansion) (s : res (list item)) : Prop :=
  res_rel (fun x l => equiv sep (flat (fields x)) l) m s.

(** not in the recorded class; literal text of the word itself ([top]) free of IFS characters *)
Definition null_free (top : bool) (p : wpiece) : Prop :=
  forall ps inner, p = WDQ ps -> items top true ps = Ok inner ->
    existsb (zero_list_piece e) ps && only_marks inner = true -> inner = [].
Definition lit_free (sep : str) (top : bool) (p : wpiece) : Prop :=
  top = true -> forall s, p = WText s -> forallb (fun c => negb (mem c sep)) s = true.

(** A fragment is given by the parameter expressions it allows ([okpe]).  Once these are
    simulated in and out of double quotes, so is every word of the fragment. *)
Section Frag.
Variable sep : str.
Variable okpe : pexpr -> bool.

Definition ok_inner (p : wpiece) : bool :=
  match p with WDQ _ => false | WParam pe => okpe pe | _ => true end.
Definition ok_piece (p : wpiece) : bool :=
  match p with WDQ ps => forallb ok_inner ps | WParam pe => okpe pe | _ => true end.

Hypothesis Hdq : forall top pe, okpe pe = true ->
  sim_dq sep (expand_pexpr o e true pe) (pexpr_items o e top true pe).
Hypothesis Hunq : forall top pe, okpe pe = true ->
  sim_unq sep (expand_pexpr o e false pe) (pexpr_items o e top false pe).

Lemma piece_dq top p : ok_inner p = true ->
  sim_dq sep (expand_piece o e true p) (piece_items o e top true p).
Proof.
  intros Hf. unfold sim_dq. destruct p as [s|s|s|ps|t|pe|c|a|s]; cbn [ok_inner] in Hf; try discriminate;
    try (cbn [expand_piece piece_items res_rel]; erewrite dq_out_single by reflexivity; apply equiv_refl).
  - cbn [expand_piece piece_items]. destruct (o_tilde o t); cbn [res_rel]; [|reflexivity].
    erewrite dq_out_single by reflexivity. apply equiv_refl.
  - now apply Hdq.
Qed.

Lemma pieces_dq top ps : forallb ok_inner ps = true ->
  res_rel (fun xs l => equiv sep (flat (fold_left (dq_step (ifs_joiner e)) xs [])) l)
          (expand_pieces o e true ps) (items top true ps).
Proof.
  intros Hf. eapply res_rel_imp;
    [|apply pieces_rel; intros p Hin; exact (piece_dq top p (forallb_in _ _ p Hf Hin))].
  intros xs l (ls & -> & H). rewrite flat_dq_fold. now apply equiv_concat.
Qed.

Lemma piece_unq top p : ok_piece p = true -> null_free top p -> lit_free sep top p ->
  sim_unq sep (expand_piece o e false p) (piece_items o e top false p).
Proof.
  intros Hf Hk Hlit. unfold sim_unq. destruct p as [s|s|s|ps|t|pe|c|a|s]; cbn [ok_piece] in Hf;
    try (cbn [expand_piece piece_items res_rel]; rewrite flat_exp_of_piece; apply equiv_refl).
  - cbn [expand_piece piece_items res_rel]. rewrite flat_exp_of_piece.
    destruct top; [|apply equiv_refl]. apply equiv_sym, equiv_lit. now apply Hlit.
  - rewrite expand_dq_eq, piece_items_dq. destruct ps as [|p0 r0]; [cbn; apply equiv_refl|].
    eapply res_rel_map; [|exact (pieces_dq top _ Hf)]. intros xs inner _ Hi H. cbn [fields is_nil].
    destruct (existsb (zero_list_piece e) (p0 :: r0) && only_marks inner) eqn:Hc; [|exact H].
    now rewrite (Hk _ _ eq_refl Hi Hc) in H.
  - cbn [expand_piece piece_items]. destruct (o_tilde o t); cbn [res_rel]; [|reflexivity].
    rewrite flat_exp_of_piece. apply equiv_refl.
  - now apply Hunq.
Qed.

Lemma word_unq top w :
  (forall p, In p w -> ok_piece p = true /\ null_free top p /\ lit_free sep top p) ->
  res_rel (fun xs l => equiv sep (flat (fields (coalesce xs))) l)
          (expand_pieces o e false w) (items top false w).
Proof.
  intros H. eapply res_rel_imp;
    [|apply pieces_rel; intros p Hin; destruct (H p Hin) as (H1 & H2 & H3); exact (piece_unq top p H1 H2 H3)].
  intros xs l (ls & -> & H2). unfold coalesce. rewrite flat_coalesce. now apply equiv_concat.
Qed.

Lemma word_sim w : forallb ok_piece w = true -> known_at_null w = false -> lit_ok sep w = true ->
  res_rel (fun xs l => equiv sep (flat (fields (coalesce xs))) l)
          (expand_pieces o e false w) (word_items o e w).
Proof.
  intros Hf Hk Hl. rewrite word_items_eq. apply word_unq. intros p Hin.
  split; [exact (forallb_in _ _ p Hf Hin)|]. split.
  - intros ps inner -> Hi Hc. pose proof (existsb_false_in _ _ _ Hk Hin) as Hkp.
    cbn [dq_known] in Hkp. rewrite dq_inner_eq, Hi, Hc in Hkp. now destruct inner.
  - intros _ s ->. exact (forallb_in _ _ _ Hl Hin).
Qed.

End Frag.

Definition frag_pexpr (pe : pexpr) : bool := match pe with EPlain _ | ELen _ => true | _ => false end.
Definition frag_inner (p : wpiece) : bool :=
  match p with WDQ _ => false | WParam pe => frag_pexpr pe | _ => true end.
Definition frag_piece (p : wpiece) : bool :=
  match p with WDQ ps => forallb frag_inner ps | WParam pe => frag_pexpr pe | _ => true end.
Definition frag (w : word) : bool := forallb frag_piece w.

(** "$*" joins as in bash: fails only for empty IFS before the repair of get_ifs_first_char *)
Definition star_ok : Prop := ifs_joiner e = star_joiner e.

Lemma plain_dq sep : star_ok -> forall top pe, frag_pexpr pe = true ->
  sim_dq sep (expand_pexpr o e true pe) (pexpr_items o e top true pe).
Proof.
  intros Hstar top pe Hf. unfold sim_dq. destruct pe as [p| | |p]; cbn [frag_pexpr] in Hf; try discriminate;
    cbn [expand_pexpr pexpr_items res_rel].
  - unfold param_items. destruct (is_list_param p) eqn:Hl.
    + rewrite (expand_param_list e p Hl). unfold dq_out, to_append, exp_of_array. cbn [concatenate fields].
      destruct (is_star p); rewrite map_make_singletons.
      * change (fun v : str => [Unsplittable v]) with quoted1. rewrite <- Hstar.
        destruct (elems_of e p) as [|v r]; [cbn; apply equiv_refl|].
        rewrite nonnil_match by (destruct r; discriminate).
        cbn [map]. rewrite flat_one. exact (star_equiv sep _ v r).
      * rewrite (flat_singletons Unsplittable). apply equiv_refl.
    + rewrite (expand_param_nonlist e p Hl). erewrite dq_out_single by reflexivity. apply equiv_refl.
  - rewrite poly_len_eq. erewrite dq_out_single by reflexivity. apply equiv_refl.
Qed.

Lemma plain_unq sep top pe : frag_pexpr pe = true ->
  sim_unq sep (expand_pexpr o e false pe) (pexpr_items o e top false pe).
Proof.
  intros Hf. unfold sim_unq. destruct pe as [p| | |p]; cbn [frag_pexpr] in Hf; try discriminate;
    cbn [expand_pexpr pexpr_items res_rel].
  - unfold param_items. destruct (is_list_param p) eqn:Hl.
    + rewrite (expand_param_list e p Hl). unfold exp_of_array; cbn [fields].
      rewrite (flat_singletons Splittable). apply equiv_refl.
    + rewrite (expand_param_nonlist e p Hl). unfold flat; cbn. rewrite app_nil_r. apply equiv_refl.
  - rewrite poly_len_eq. unfold exp_of_str. rewrite flat_exp_of_piece. apply equiv_refl.
Qed.

Lemma fields_of_sim w : ifs_ws (ifs_of e) ->
  res_rel (fun xs l => equiv (ifs_of e) (flat (fields (coalesce xs))) l)
          (expand_pieces o e false w) (word_items o e w) ->
  spec_fields o e w =
  match basic_expand o e w with
  | Ok x => Ok (map tagged (split_fields e x))
  | Err c => Err c
  end.
Proof.
  intros Hws H. unfold spec_fields, basic_expand. destruct w as [|p r]; [reflexivity|]. unfold bind.
  destruct (expand_pieces o e false (p :: r)), (word_items o e (p :: r)); cbn [res_rel] in H;
    try contradiction; [|now subst].
  f_equal. unfold split_fields. rewrite <- (cut_flat _ Hws). unfold cut. now rewrite (H st0).
Qed.

Theorem fields_model_eq_spec w :
  ifs_ws (ifs_of e) -> frag w = true -> lit_ok (ifs_of e) w = true ->
  known_at_null w = false -> star_ok ->
  spec_fields o e w =
  match basic_expand o e w with
  | Ok x => Ok (map tagged (split_fields e x))
  | Err c => Err c
  end.
Proof.
  intros Hws Hf Hlit Hk Hstar. apply fields_of_sim; [exact Hws|].
  apply word_sim with (okpe := frag_pexpr);
    [exact (plain_dq _ Hstar) | exact (plain_unq _) | exact Hf | exact Hk | exact Hlit].
Qed.

End Params.

Lemma field_str_tagged f : field_str f = map fst (tagged f).
Proof.
  induction f as [|p r IH]; [reflexivity|].
  change (field_str (p :: r)) with (piece_str p ++ field_str r).
  unfold tagged in *; cbn [flat_map]. rewrite map_app, IH. f_equal.
  destruct p; cbn; rewrite map_map; cbn; now rewrite map_id.
Qed.

Lemma runs_all_quoted t : t <> [] -> forallb (fun cq => snd cq) t = true ->
  runs t = [Unsplittable (map fst t)].
Proof.
  induction t as [|[c q] r IH]; [congruence|]. intros _ H. cbn in H. apply andb_true_iff in H as [Hq Hr].
  cbn in Hq; subst q. destruct r as [|cq r'].
  - reflexivity.
  - remember (cq :: r') as t' eqn:Et. cbn [runs]. rewrite IH by (subst; discriminate || assumption). reflexivity.
Qed.

Lemma tagged_all_uns f : all_uns f = true -> forallb (fun cq => snd cq) (tagged f) = true.
Proof.
  induction f as [|p r IH]; [reflexivity|]. intros H.
  change (all_uns (p :: r)) with (is_uns p && all_uns r) in H. apply andb_true_iff in H as [Hp Hr].
  destruct p as [s|s]; [|discriminate].
  change (tagged (Unsplittable s :: r)) with (map (fun c => (c, true)) s ++ tagged r).
  rewrite forallb_app, (IH Hr), andb_true_r.
  clear. induction s; cbn; auto.
Qed.

(** entirely quoted, or the pieces are already the maximal quoted / unquoted runs.  An assumption
    of [full_model_eq_spec] on the model's fields: nothing here derives it. *)
Definition glob_ready (f : wfield) : Prop :=
  (all_uns f = true /\ f <> []) \/ pattern_of (tagged f) = f.

Lemma pattern_of_uns f : all_uns f = true -> pattern_of (tagged f) = [Unsplittable (field_str f)].
Proof.
  intros Hu. rewrite field_str_tagged. unfold pattern_of. destruct (tagged f) eqn:Et; [reflexivity|].
  rewrite <- Et. apply runs_all_quoted; [rewrite Et; discriminate | now apply tagged_all_uns].
Qed.

Lemma glob_fields_ready o e fs : Forall glob_ready fs ->
  glob_fields o e (map pattern_of (map tagged fs)) = glob_fields o e fs.
Proof.
  induction fs as [|f r IH]; intros H; [reflexivity|]. inversion H as [|? ? Hf Hr]; subst.
  cbn [map glob_fields]. rewrite (IH Hr). destruct Hf as [[Hu Hne]|Hc]; [|now rewrite Hc].
  rewrite (pattern_of_uns f Hu), field_str_one.
  now rewrite !expand_pathnames_uns, field_str_one by (assumption || reflexivity || discriminate).
Qed.

Lemma full_of_fields o e w :
  spec_fields o e w =
    match basic_expand o e w with Ok x => Ok (map tagged (split_fields e x)) | Err c => Err c end ->
  (forall x, basic_expand o e w = Ok x -> Forall glob_ready (split_fields e x)) ->
  spec_expand o e w = full_expand o e w.
Proof.
  intros Hfields Hready. unfold spec_expand, full_expand. rewrite Hfields.
  destruct (basic_expand o e w) as [x|c]; [|reflexivity]. cbn [bind].
  apply glob_fields_ready. now apply Hready.
Qed.

Theorem full_model_eq_spec o e w :
  ifs_ws (ifs_of e) -> frag w = true -> lit_ok (ifs_of e) w = true ->
  known_at_null o e w = false -> star_ok e ->
  (forall x, basic_expand o e w = Ok x -> Forall glob_ready (split_fields e x)) ->
  spec_expand o e w = full_expand o e w.
Proof. intros Hws Hf Hlit Hk Hstar. apply full_of_fields. now apply fields_model_eq_spec. Qed.

Section Empty.
Variable o : oracles.
Variable e : env.

Lemma empty_unquoted_vanishes p : fields (expand_param e p) = [[Splittable []]] ->
  full_expand o e [WParam (EPlain p)] = Ok [].
Proof.
  intros Hf. unfold full_expand. rewrite basic_expand_one. cbn [expand_piece expand_pexpr rmap bind].
  rewrite coalesce_one. unfold split_fields. cbn [fields]. now rewrite Hf.
Qed.

Lemma quoted_null_kept : full_expand o e [WDQ []] = Ok [[]] /\ full_expand o e [WSQ []] = Ok [[]].
Proof. split; unfold full_expand, basic_expand; cbn; destruct (noglob e); reflexivity. Qed.

Lemma empty_next_to_quoted_null p : fields (expand_param e p) = [[Splittable []]] ->
  full_expand o e [WParam (EPlain p); WDQ []] = Ok [[]] /\
  full_expand o e [WDQ []; WParam (EPlain p)] = Ok [[]].
Proof.
  intros Hf. split; unfold full_expand, basic_expand;
    cbn [expand_pieces expand_piece expand_pexpr bind is_nil app];
    unfold coalesce, split_fields; cbn [fold_left coalesce_step fields exp_default];
    rewrite ?join_fields_nil_l, Hf; cbn; destruct (noglob e); reflexivity.
Qed.

End Empty.

Lemma star_ok_nonempty_ifs e : ifs e <> Some [] -> star_ok e.
Proof. intros H. unfold star_ok, ifs_joiner, star_joiner. destruct (ifs e) as [[|c r]|]; try reflexivity; exfalso; apply H; reflexivity. Qed.

Definition ex_colon_env : env :=
  mkEnv [([120%N], VStr [97; 58; 58; 98]%N)] [] (Some [58%N]) false false false false false.   (* x=a::b IFS=: *)
Definition ex_oracles0 : oracles :=
  mkOr (fun _ => []) (fun _ => []) (fun _ => None) (fun s => s) (fun _ _ => false) (fun _ _ => []).

(** $x: bash (the specification) gives a, "", b; the code a, b *)
Lemma nonws_ifs_refuted :
  spec_expand ex_oracles0 ex_colon_env [WParam (EPlain (PNamed [120%N]))] = Ok [[97]; []; [98]]%N /\
  full_expand ex_oracles0 ex_colon_env [WParam (EPlain (PNamed [120%N]))] = Ok [[97]; [98]]%N.
Proof. split; vm_compute; reflexivity. Qed.

(** the literal word a:b: bash keeps it, the code splits literal text *)
Lemma literal_ifs_refuted :
  spec_expand ex_oracles0 ex_colon_env [WText [97; 58; 98]%N] = Ok [[97; 58; 98]]%N /\
  full_expand ex_oracles0 ex_colon_env [WText [97; 58; 98]%N] = Ok [[97]; [98]]%N.
Proof. split; vm_compute; reflexivity. Qed.
