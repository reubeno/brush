(** C13: the compound values printed by declare -p / the A transform.

    Model: brush-core/src/variables.rs [ShellValue::format] with [FormatStyle::DeclarePrint] for
    indexed and associative arrays (scalars are [force_quote DoubleQuote], covered by Proofs.v).
    Spec: [read_compound], how bash reads a compound assignment value [( [key]=word ... )]: elements
    are split at unquoted spaces, a key ends at the first unquoted closing bracket, values are read
    by [read_word Assign] of Reader.v and keys by its scanner [rd] (a key starts no tilde prefix).
    Theorems: reading what [fmt_*] prints gives back the keys and values - for indexed arrays with or
    without the position-dependent escaping test (their keys are digits, their values always quoted),
    for associative arrays with it (their keys are quoted only if needed). *)
From BV Require Import Base.Prelude gen.C13EscapeTables Quote.Quote Quote.Reader Quote.Proofs.
Open Scope N_scope.

Definition LPAR : char := 40.
Definition RPAR : char := 41.
Definition LBR : char := 91.
Definition RBR : char := 93.
Definition SPC : char := 32.

Section Fmt.
Variable pos : bool.

(** [ShellValue::IndexedArray]: ([k]=v [k]=v) with single blanks between; the keys are taken as given (the caller
    prints the indices in decimal, cf. [kv_ok_indexed]) *)
Fixpoint fmt_indexed_items (vs : list (str * str)) : str :=
  match vs with
  | [] => []
  | [(k, v)] => LBR :: k ++ [RBR; EQUALS] ++ force_quote pos QDouble v
  | (k, v) :: r => LBR :: k ++ [RBR; EQUALS] ++ force_quote pos QDouble v ++ SPC :: fmt_indexed_items r
  end.
Definition fmt_indexed (vs : list (str * str)) : str := LPAR :: fmt_indexed_items vs ++ [RPAR].

(** [ShellValue::AssociativeArray]: ([k]=v [k]=v ) with a blank after every element *)
Definition fmt_assoc_item (kv : str * str) : str :=
  LBR :: quote_if_needed pos QDouble (fst kv) ++ [RBR; EQUALS] ++ force_quote pos QDouble (snd kv) ++ [SPC].
Definition fmt_assoc (kvs : list (str * str)) : str := LPAR :: flat_map fmt_assoc_item kvs ++ [RPAR].
End Fmt.

(** scan to the first unquoted character satisfying [stop]; quoting as in Reader.v *)
Inductive smode := QU | QS | QD | QA.

Fixpoint scan (stop : char -> bool) (m : smode) (s : str) : option (str * str) :=
  match s with
  | [] => None
  | c :: r =>
    match m with
    | QU =>
        if stop c then Some ([], s)
        else if c =? 92 then
          match r with
          | d :: r' => match scan stop QU r' with Some (a, b) => Some (c :: d :: a, b) | None => None end
          | [] => None
          end
        else if c =? 39 then match scan stop QS r with Some (a, b) => Some (c :: a, b) | None => None end
        else if c =? 34 then match scan stop QD r with Some (a, b) => Some (c :: a, b) | None => None end
        else if c =? 36 then
          match r with
          | d :: r' => if d =? 39 then match scan stop QA r' with Some (a, b) => Some (c :: d :: a, b) | None => None end
                       else match scan stop QU r with Some (a, b) => Some (c :: a, b) | None => None end
          | [] => None
          end
        else match scan stop QU r with Some (a, b) => Some (c :: a, b) | None => None end
    | QS =>
        if c =? 39 then match scan stop QU r with Some (a, b) => Some (c :: a, b) | None => None end
        else match scan stop QS r with Some (a, b) => Some (c :: a, b) | None => None end
    | QD =>
        if c =? 34 then match scan stop QU r with Some (a, b) => Some (c :: a, b) | None => None end
        else if c =? 92 then
          match r with
          | d :: r' => match scan stop QD r' with Some (a, b) => Some (c :: d :: a, b) | None => None end
          | [] => None
          end
        else match scan stop QD r with Some (a, b) => Some (c :: a, b) | None => None end
    | QA =>
        if c =? 39 then match scan stop QU r with Some (a, b) => Some (c :: a, b) | None => None end
        else if c =? 92 then
          match r with
          | d :: r' => match scan stop QA r' with Some (a, b) => Some (c :: d :: a, b) | None => None end
          | [] => None
          end
        else match scan stop QA r with Some (a, b) => Some (c :: a, b) | None => None end
    end
  end.

Definition is_rbr (c : char) : bool := c =? RBR.
Definition is_end (c : char) : bool := (c =? SPC) || (c =? RPAR).

Fixpoint read_elems (fuel : nat) (s : str) : option (list (str * str)) :=
  match fuel with O => None | S f =>
  match s with
  | c :: r =>
      if c =? RPAR then (match r with [] => Some [] | _ => None end)
      else if c =? SPC then read_elems f r
      else if c =? LBR then
        match scan is_rbr QU r with
        | Some (kt, _ :: e :: r1) =>
            if e =? EQUALS then
              match scan is_end QU r1 with
              | Some (vt, r2) =>
                  match rd (MU false) kt, read_word Assign vt, read_elems f r2 with
                  | Some k, Some v, Some rest => Some ((k, v) :: rest)
                  | _, _, _ => None
                  end
              | None => None
              end
            else None
        | _ => None
        end
      else None
  | [] => None
  end end.

Definition read_compound (s : str) : option (list (str * str)) :=
  match s with
  | c :: r => if c =? LPAR then read_elems (S (length r)) r else None
  | [] => None
  end.

Lemma scan_cons stop m c r a b : scan stop m r = Some (a, b) ->
  (match scan stop m r with Some (a, b) => Some (c :: a, b) | None => None end) = Some (c :: a, b).
Proof. intros ->. reflexivity. Qed.

Lemma scan_QU_plain stop c r :
  stop c = false -> (c =? 92) = false -> (c =? 39) = false -> (c =? 34) = false -> (c =? 36) = false ->
  scan stop QU (c :: r) = match scan stop QU r with Some (a, b) => Some (c :: a, b) | None => None end.
Proof. intros H0 H1 H2 H3 H4. cbn [scan]. rewrite H0, H1, H2, H3, H4. reflexivity. Qed.
Lemma scan_QD_esc stop d r :
  scan stop QD (92 :: d :: r) = match scan stop QD r with Some (a, b) => Some (92 :: d :: a, b) | None => None end.
Proof. reflexivity. Qed.
Lemma scan_QD_plain stop c r : (c =? 34) = false -> (c =? 92) = false ->
  scan stop QD (c :: r) = match scan stop QD r with Some (a, b) => Some (c :: a, b) | None => None end.
Proof. intros H1 H2. cbn [scan]. rewrite H1, H2. reflexivity. Qed.
Lemma scan_QA_esc stop d r :
  scan stop QA (92 :: d :: r) = match scan stop QA r with Some (a, b) => Some (92 :: d :: a, b) | None => None end.
Proof. reflexivity. Qed.
Lemma scan_QA_plain stop c r : (c =? 39) = false -> (c =? 92) = false ->
  scan stop QA (c :: r) = match scan stop QA r with Some (a, b) => Some (c :: a, b) | None => None end.
Proof. intros H1 H2. cbn [scan]. rewrite H1, H2. reflexivity. Qed.

Lemma scan_dq_body stop s rest a b : scan stop QU rest = Some (a, b) ->
  scan stop QD (flat_map dq_char s ++ DQT :: rest) = Some (flat_map dq_char s ++ DQT :: a, b).
Proof.
  intros Hr. induction s as [|c r IH].
  - cbn [flat_map app scan]. unfold DQT. cbn [N.eqb Pos.eqb]. rewrite Hr. reflexivity.
  - cbn [flat_map]. rewrite <- !app_assoc.
    destruct (dq_char_cases c) as [[-> _] | [-> [N34 [N92 _]]]]; cbn [app].
    + rewrite scan_QD_esc, IH. reflexivity.
    + rewrite (scan_QD_plain stop c _ N34 N92), IH. reflexivity.
Qed.

(** [passes stop X]: the scanner, unquoted before and behind, goes over the text [X] as a whole *)
Definition passes (stop : char -> bool) (X : str) : Prop :=
  forall rest a b, scan stop QU rest = Some (a, b) -> scan stop QU (X ++ rest) = Some (X ++ a, b).

Lemma passes_stop stop X c rest : passes stop X -> stop c = true -> scan stop QU (X ++ c :: rest) = Some (X, c :: rest).
Proof.
  intros H Hc. rewrite (H (c :: rest) [] (c :: rest)); [rewrite app_nil_r; reflexivity|].
  cbn [scan]. rewrite Hc. reflexivity.
Qed.

Lemma scan_double stop s : stop DQT = false -> passes stop (double_quote s).
Proof.
  intros Hs rest a b Hr. unfold double_quote. cbn [app scan]. rewrite Hs. unfold DQT at 1 2. cbn [N.eqb Pos.eqb].
  rewrite <- !app_assoc. cbn [app]. rewrite (scan_dq_body stop s rest a b Hr). reflexivity.
Qed.

Lemma oct_not_quote d : is_oct d = true -> (d =? 39) = false /\ (d =? 92) = false.
Proof.
  unfold is_oct. intros Hd. apply andb_true_iff in Hd as [H48 H55].
  apply N.leb_le in H48, H55. split; apply N.eqb_neq; lia.
Qed.

Lemma scan_ac_char stop c rest a b : c <> 0 -> scan stop QA rest = Some (a, b) ->
  scan stop QA (ac_char c ++ rest) = Some (ac_char c ++ a, b).
Proof.
  intros Hc Hr.
  destruct (ac_char_cases c Hc)
    as [[l [-> _]] | [[d1 [d2 [d3 [-> [_ [_ [H2 [H3 _]]]]]]]] | [-> [N39 N92]]]]; cbn [app].
  - rewrite scan_QA_esc, Hr. reflexivity.
  - destruct (oct_not_quote d2 H2) as [A2 B2]. destruct (oct_not_quote d3 H3) as [A3 B3].
    rewrite scan_QA_esc, (scan_QA_plain stop d2 _ A2 B2), (scan_QA_plain stop d3 _ A3 B3), Hr. reflexivity.
  - rewrite (scan_QA_plain stop c _ N39 N92), Hr. reflexivity.
Qed.

Lemma scan_ansi stop s : no_nul s -> stop DOLLAR = false -> passes stop (ansi_c_quote s).
Proof.
  intros Hn Hs rest a b Hr.
  assert (Hbody : scan stop QA (flat_map ac_char s ++ SQT :: rest) = Some (flat_map ac_char s ++ SQT :: a, b)).
  { induction Hn as [|c r Hc Hr' IH].
    - cbn [flat_map app scan]. unfold SQT. cbn [N.eqb Pos.eqb]. rewrite Hr. reflexivity.
    - cbn [flat_map]. rewrite <- !app_assoc. apply scan_ac_char; [exact Hc | exact IH]. }
  unfold ansi_c_quote, DOLLAR, SQT in *. cbn [app]. rewrite <- !app_assoc. cbn [app]. cbn [scan]. rewrite Hs.
  cbn [N.eqb Pos.eqb]. rewrite Hbody. reflexivity.
Qed.

Lemma scan_force_double pos stop v : no_nul v -> stop DQT = false -> stop DOLLAR = false ->
  passes stop (force_quote pos QDouble v).
Proof.
  intros Hn H1 H2. unfold force_quote, quote. cbn [always_quote preferred orb].
  destruct (use_ansi_c _ v); [apply scan_ansi | apply scan_double]; assumption.
Qed.

Lemma scan_raw stop k : any_needs true None k = false -> (forall c, In c k -> stop c = false) -> passes stop k.
Proof.
  intros Hn Hst rest a b Hr. revert Hn Hst. generalize (@None char) as prev.
  induction k as [|c r IH]; intros prev Hn Hst; [exact Hr|].
  cbn [any_needs] in Hn. apply orb_false_iff in Hn as [He Hn].
  unfold esc_here in He. apply orb_false_iff in He as [En _].
  destruct (not_needs_plain c En) as [N39 [N34 [N92 N36]]].
  cbn [app]. rewrite (scan_QU_plain stop c _ (Hst c (or_introl eq_refl)) N92 N39 N34 N36).
  rewrite (IH (Some c) Hn (fun x Hx => Hst x (or_intror Hx))). reflexivity.
Qed.

Lemma rd_key_raw s : any_needs true None s = false -> no_ctrl s -> rd (MU false) s = Some s.
Proof.
  intros Ha Hc. rewrite <- (bs_body_id true s None Ha) at 1. apply rd_bs_body; [exact Hc | discriminate].
Qed.

Lemma any_needs_chars pos s : forall prev, any_needs pos prev s = false -> forall c, In c s -> needs_escaping c = false.
Proof.
  induction s as [|x r IH]; intros prev H c Hin; [contradiction|].
  cbn [any_needs] in H. apply orb_false_iff in H as [He Hr].
  destruct Hin as [->|Hin]; [|exact (IH _ Hr c Hin)].
  unfold esc_here in He. apply orb_false_iff in He. exact (proj1 He).
Qed.

Lemma rbr_needs : needs_escaping RBR = true. Proof. vm_compute. reflexivity. Qed.

(** a closing bracket in a raw key would have been escaped *)
Lemma raw_key_text k : any_needs true None k = false -> no_ctrl k ->
  rd (MU false) k = Some k /\ forall rest, scan is_rbr QU (k ++ RBR :: rest) = Some (k, RBR :: rest).
Proof.
  intros Ha Hc. split; [apply rd_key_raw; assumption|]. intros rest.
  apply passes_stop; [apply (scan_raw is_rbr k Ha) | reflexivity].
  intros c Hin. unfold is_rbr. apply N.eqb_neq. intros ->.
  pose proof (any_needs_chars true k None Ha _ Hin) as H. rewrite rbr_needs in H. discriminate.
Qed.

Lemma key_text k : no_nul k ->
  rd (MU false) (quote_if_needed true QDouble k) = Some k /\
  forall rest, scan is_rbr QU (quote_if_needed true QDouble k ++ RBR :: rest) = Some (quote_if_needed true QDouble k, RBR :: rest).
Proof.
  intros Hn. unfold quote_if_needed, quote. cbn [always_quote preferred orb].
  destruct (use_ansi_c _ k) eqn:Eu.
  - split; [apply rd_ansi; exact Hn|]. intros rest.
    apply passes_stop; [apply scan_ansi; [exact Hn | reflexivity] | reflexivity].
  - pose proof (use_ansi_c_false {| always_quote := false; preferred := QDouble; avoid_nl := false |} k eq_refl Eu) as Hctl.
    destruct (is_nil k || any_needs true None k) eqn:Eq.
    + split; [apply rd_double|]. intros rest.
      apply passes_stop; [apply scan_double; reflexivity | reflexivity].
    + apply orb_false_iff in Eq as [_ Ean]. apply raw_key_text; assumption.
Qed.

Lemma digits_no_needs : forallb (fun d => negb (needs_escaping d) && negb (needs_ansi_c_quoting d)
                                          && negb (d =? TILDE) && negb (d =? HASH))
                          [48;49;50;51;52;53;54;55;56;57] = true.
Proof. vm_compute. reflexivity. Qed.

Lemma digit_facts d : is_digit d = true ->
  needs_escaping d = false /\ needs_ansi_c_quoting d = false /\ (d =? TILDE) = false /\ (d =? HASH) = false.
Proof.
  intros H. unfold is_digit in H. apply andb_true_iff in H as [H1 H2]. apply N.leb_le in H1, H2.
  pose proof digits_no_needs as Hall. rewrite forallb_forall in Hall.
  assert (Hin : In d [48;49;50;51;52;53;54;55;56;57]).
  { assert (Hn : In (N.to_nat d) (seq 48 10)) by (apply in_seq; lia).
    apply (in_map N.of_nat) in Hn. rewrite N2Nat.id in Hn. exact Hn. }
  specialize (Hall d Hin). repeat (apply andb_true_iff in Hall; destruct Hall as [Hall ?H]).
  repeat split; apply negb_true_iff; assumption.
Qed.

Lemma digits_any_needs k : forallb is_digit k = true -> forall prev, any_needs true prev k = false.
Proof.
  induction k as [|d r IH]; intros Hd prev; [reflexivity|].
  cbn [forallb] in Hd. apply andb_true_iff in Hd as [H1 H2].
  destruct (digit_facts d H1) as [F1 [_ [F3 F4]]].
  cbn [any_needs]. unfold esc_here, needs_escaping_at. rewrite F1, F3, F4, (IH H2). reflexivity.
Qed.

Lemma digits_no_ctrl k : forallb is_digit k = true -> no_ctrl k.
Proof.
  induction k as [|d r IH]; intros Hd; [constructor|].
  cbn [forallb] in Hd. apply andb_true_iff in Hd as [H1 H2].
  constructor; [exact (proj1 (proj2 (digit_facts d H1))) | exact (IH H2)].
Qed.

Lemma index_text k : forallb is_digit k = true ->
  rd (MU false) k = Some k /\ forall rest, scan is_rbr QU (k ++ RBR :: rest) = Some (k, RBR :: rest).
Proof. intros Hd. exact (raw_key_text k (digits_any_needs k Hd None) (digits_no_ctrl k Hd)). Qed.

Lemma read_elem pos f (kt k v : str) (c0 : char) r0 t :
  rd (MU false) kt = Some k /\ (forall rest, scan is_rbr QU (kt ++ RBR :: rest) = Some (kt, RBR :: rest)) ->
  no_nul v -> is_end c0 = true -> read_elems f (c0 :: r0) = Some t ->
  read_elems (S f) (LBR :: kt ++ RBR :: EQUALS :: force_quote pos QDouble v ++ c0 :: r0) = Some ((k, v) :: t).
Proof.
  intros [Hrd Hscan] Hv Hc Ht. cbn [read_elems]. unfold LBR at 1 2 3, RPAR at 1, SPC at 1. cbn [N.eqb Pos.eqb].
  rewrite Hscan. unfold EQUALS at 1 2. cbn [N.eqb Pos.eqb].
  rewrite (passes_stop is_end _ c0 r0 (scan_force_double pos is_end v Hv eq_refl eq_refl) Hc).
  rewrite Hrd, (read_force_quote pos Assign QDouble v), Ht; [reflexivity | discriminate | exact Hv].
Qed.

Definition kv_ok_indexed (kv : str * str) : Prop := forallb is_digit (fst kv) = true /\ no_nul (snd kv).
Definition kv_ok_assoc (kv : str * str) : Prop := no_nul (fst kv) /\ no_nul (snd kv).

Lemma read_elems_skip f (r : str) : read_elems (S f) (SPC :: r) = read_elems f r.
Proof. reflexivity. Qed.

Lemma assoc_item_shape (k v : str) (rest : str) :
  fmt_assoc_item true (k, v) ++ rest =
  LBR :: quote_if_needed true QDouble k ++ RBR :: EQUALS :: force_quote true QDouble v ++ (SPC :: rest).
Proof. unfold fmt_assoc_item. cbn [fst snd app]. rewrite <- !app_assoc. cbn [app]. rewrite <- !app_assoc. reflexivity. Qed.

Theorem read_assoc_items kvs : Forall kv_ok_assoc kvs -> forall fuel,
  (length (flat_map (fmt_assoc_item true) kvs ++ [RPAR]) < fuel)%nat ->
  read_elems fuel (flat_map (fmt_assoc_item true) kvs ++ [RPAR]) = Some kvs.
Proof.
  induction 1 as [|[k v] r [Hk Hv] Hr IH]; intros fuel Hlen.
  - destruct fuel as [|f]; [cbn in Hlen; lia | reflexivity].
  - cbn [fst snd] in Hk, Hv. cbn [flat_map] in *. rewrite <- app_assoc, assoc_item_shape in *.
    cbn [length] in Hlen. rewrite !app_length in Hlen. cbn [length] in Hlen. rewrite app_length in Hlen.
    (* an element takes two units of fuel: one for itself, one for the blank behind it *)
    destruct fuel as [|[|f']]; try lia.
    apply (read_elem true); [exact (key_text k Hk) | exact Hv | reflexivity |].
    rewrite read_elems_skip. apply IH. cbn [length] in Hlen. lia.
Qed.

Theorem read_assoc kvs : Forall kv_ok_assoc kvs -> read_compound (fmt_assoc true kvs) = Some kvs.
Proof.
  intros H. unfold fmt_assoc, read_compound, LPAR. cbn [N.eqb Pos.eqb]. apply read_assoc_items; [exact H | lia].
Qed.

Lemma indexed_one_shape pos (k v : str) :
  fmt_indexed_items pos [(k, v)] ++ [RPAR] = LBR :: k ++ RBR :: EQUALS :: force_quote pos QDouble v ++ [RPAR].
Proof. cbn [fmt_indexed_items app]. rewrite <- !app_assoc. reflexivity. Qed.
Lemma indexed_more_shape pos (k v : str) kv2 r :
  fmt_indexed_items pos ((k, v) :: kv2 :: r) ++ [RPAR] =
  LBR :: k ++ RBR :: EQUALS :: force_quote pos QDouble v ++ (SPC :: fmt_indexed_items pos (kv2 :: r) ++ [RPAR]).
Proof. destruct kv2. cbn [fmt_indexed_items app]. rewrite <- !app_assoc. cbn [app]. rewrite <- !app_assoc. reflexivity. Qed.

Theorem read_indexed_items pos vs : Forall kv_ok_indexed vs -> forall fuel,
  (length (fmt_indexed_items pos vs ++ [RPAR]) < fuel)%nat ->
  read_elems fuel (fmt_indexed_items pos vs ++ [RPAR]) = Some vs.
Proof.
  induction 1 as [|[k v] r [Hk Hv] Hr IH]; intros fuel Hlen.
  - destruct fuel as [|f]; [cbn in Hlen; lia | reflexivity].
  - cbn [fst snd] in Hk, Hv. pose proof (index_text k Hk) as Hkt.
    destruct r as [|kv2 r'].
    + rewrite indexed_one_shape. destruct fuel as [|f]; [lia|].
      apply (read_elem pos); [exact Hkt | exact Hv | reflexivity |].
      destruct f; [|reflexivity]. rewrite indexed_one_shape in Hlen. cbn [length] in Hlen. lia.
    + rewrite indexed_more_shape in *.
      cbn [length] in Hlen. rewrite !app_length in Hlen. cbn [length] in Hlen. rewrite app_length in Hlen.
      destruct fuel as [|[|f']]; try lia.
      apply (read_elem pos); [exact Hkt | exact Hv | reflexivity |].
      rewrite read_elems_skip. apply IH. cbn [length] in Hlen. lia.
Qed.

Theorem read_indexed pos vs : Forall kv_ok_indexed vs -> read_compound (fmt_indexed pos vs) = Some vs.
Proof.
  intros H. unfold fmt_indexed, read_compound, LPAR. cbn [N.eqb Pos.eqb]. apply read_indexed_items; [exact H | lia].
Qed.

(** without the position test a raw key may keep a tilde behind a colon: not read back by the
    (conservative) reader *)
Theorem read_assoc_refuted :
  exists kvs, Forall kv_ok_assoc kvs /\ read_compound (fmt_assoc false kvs) <> Some kvs.
Proof.
  exists [([97; COLON; TILDE], [120])]. split.
  - repeat constructor; discriminate.
  - vm_compute. discriminate.
Qed.

Example decl_examples :
  fmt_indexed false [([48], [97; 32; 98]); ([53], [10])] =
    [40; 91; 48; 93; 61; 34; 97; 32; 98; 34; 32; 91; 53; 93; 61; 36; 39; 92; 110; 39; 41] /\
  fmt_assoc false [([97; 93], [120])] = [40; 91; 34; 97; 93; 34; 93; 61; 34; 120; 34; 32; 41] /\
  read_compound (fmt_assoc true [([97; 93], [120]); ([126], [])]) = Some [([97; 93], [120]); ([126], [])].
Proof. vm_compute. repeat split; reflexivity. Qed.

(** the formatter as it is now (regenerated flag) *)
Theorem read_assoc_current kvs : Forall kv_ok_assoc kvs -> read_compound (fmt_assoc positional_escaping kvs) = Some kvs.
Proof. rewrite positional_now. apply read_assoc. Qed.
