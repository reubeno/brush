(** C13 model, read side, and below it the proof that it inverts [ansi_c_quote]:
    brush-core/src/escape.rs [expand_backslash_escapes] in
    [EscapeExpansionMode::AnsiCQuotes] (the decoder behind dollar-single-quoted words and the E
    transform), at byte level, as a character-at-a-time machine.

    Modelled: the one-letter escapes (regenerated tables), a backslash followed by 0 and up to [zd]
    further octal digits ([zd] regenerated: the unchanged tree takes 3, the echo rule; bash takes
    2), a backslash followed by 1-7 and up to two further octal digits, a backslash before any other
    character that is not one of x u U c (kept literally), a trailing backslash, the cut at the
    first NUL.  [DUnsupported]: the x u U c escapes (the correspondence skips those inputs).
    [DErr]: an octal value above 255 (the Rust code returns the integer parse error). *)
From BV Require Import Base.Prelude gen.C13EscapeTables Quote.Quote.
Open Scope N_scope.

Definition utf8 (c : char) : list N :=
  if c <? 128 then [c]
  else if c <? 2048 then [192 + c / 64; 128 + c mod 64]
  else if c <? 65536 then [224 + c / 4096; 128 + (c / 64) mod 64; 128 + c mod 64]
  else [240 + c / 262144; 128 + (c / 4096) mod 64; 128 + (c / 64) mod 64; 128 + c mod 64].

Inductive dres := DOk (bytes : list N) | DErr | DUnsupported.

Inductive dstate :=
| SNormal
| SEsc                              (* after a backslash *)
| SOct (v : N) (more : nat).        (* octal value so far, how many more digits may follow *)

Definition is_octd (c : char) : bool := (48 <=? c) && (c <=? 55).
Definition unsupported_letter (c : char) : bool := (c =? 120) || (c =? 117) || (c =? 85) || (c =? 99).

Definition emit_oct (v : N) : option (list N) := if v <=? 255 then Some [v] else None.

(** one character; [RErr] = integer parse error, [RUnsupported] = outside the modelled escapes *)
Inductive stepres := ROk (out : list N) (st : dstate) | RErr | RUnsupported.

Definition step_normal (c : char) : stepres :=
  if c =? 92 then ROk [] SEsc else ROk (utf8 c) SNormal.

Definition step (zd : nat) (st : dstate) (c : char) : stepres :=
  match st with
  | SNormal => step_normal c
  | SEsc =>
      match assoc c (decode_simple ++ decode_ansic_only) with
      | Some v => ROk [v] SNormal
      | None =>
          if c =? 48 then (match zd with O => ROk [0] SNormal | S k => ROk [] (SOct 0 zd) end)
          else if is_octd c then ROk [] (SOct (c - 48) 2)
          else if unsupported_letter c then RUnsupported
          else ROk (92 :: utf8 c) SNormal
      end
  | SOct v more =>
      match more with
      | O => RErr   (* never constructed: a state with no digits left is flushed at once *)
      | S k =>
          if is_octd c then
            let v' := v * 8 + (c - 48) in
            match k with
            | O => match emit_oct v' with Some b => ROk b SNormal | None => RErr end
            | S _ => ROk [] (SOct v' k)
            end
          else
            match emit_oct v with
            | Some b => match step_normal c with ROk o s => ROk (b ++ o) s | r => r end
            | None => RErr
            end
      end
  end.

Definition flush (st : dstate) : option (list N) :=
  match st with
  | SNormal => Some []
  | SEsc => Some [92]
  | SOct v _ => emit_oct v
  end.

Fixpoint run (zd : nat) (st : dstate) (s : str) : dres :=
  match s with
  | [] => match flush st with Some b => DOk b | None => DErr end
  | c :: r =>
      match step zd st c with
      | ROk o st' => match run zd st' r with DOk b => DOk (o ++ b) | e => e end
      | RErr => DErr
      | RUnsupported => DUnsupported
      end
  end.

Fixpoint cut_nul (b : list N) : list N :=
  match b with [] => [] | x :: r => if x =? 0 then [] else x :: cut_nul r end.

Definition decode (zd : nat) (s : str) : dres :=
  match run zd SNormal s with DOk b => DOk (cut_nul b) | e => e end.

(** the text between the quotes of [ansi_c_quote] *)
Definition ansi_body (s : str) : str := flat_map ac_char s.

From BV Require Import Quote.Proofs.

Definition utf8s (s : str) : list N := flat_map utf8 s.

Definition named_dec_ok (ke : N * list N) : bool :=
  match snd ke with
  | [b; l] => (b =? 92) && (fst ke <? 128) &&
              match assoc l (decode_simple ++ decode_ansic_only) with Some v => v =? fst ke | None => false end
  | _ => false
  end.
Lemma named_dec_table : forallb named_dec_ok ansi_c_named = true.
Proof. vm_compute. reflexivity. Qed.

(** the octal text of a control character decodes to it and leaves the machine in [SNormal] *)
Definition oct_dec_ok (c : N) : bool :=
  match oct3 c with
  | [b; d1; d2; d3] =>
      match step 2 SNormal b with
      | ROk [] s1 => match step 2 s1 d1 with
                     | ROk [] s2 => match step 2 s2 d2 with
                                    | ROk [] s3 => match step 2 s3 d3 with
                                                   | ROk [v] SNormal => v =? c
                                                   | _ => false end
                                    | _ => false end
                     | _ => false end
      | _ => false end
  | _ => false
  end.
Lemma oct_dec_all : forallb oct_dec_ok (map N.of_nat (seq 1 127)) = true.
Proof. vm_compute. reflexivity. Qed.

Lemma run_app_ok zd st s1 s2 o st' :
  (forall r, run zd st (s1 ++ r) = match run zd st' r with DOk b => DOk (o ++ b) | e => e end) ->
  run zd st (s1 ++ s2) = match run zd st' s2 with DOk b => DOk (o ++ b) | e => e end.
Proof. intros H. apply H. Qed.

Lemma run_ac_char c : c <> 0 -> forall r,
  run 2 SNormal (ac_char c ++ r) = match run 2 SNormal r with DOk b => DOk (utf8 c ++ b) | e => e end.
Proof.
  intros Hc r. unfold ac_char. destruct (assoc c ansi_c_named) as [e|] eqn:Ea.
  - (* a named escape *)
    apply assoc_In in Ea. pose proof named_dec_table as Hall. rewrite forallb_forall in Hall.
    specialize (Hall _ Ea). unfold named_dec_ok in Hall. cbn [fst snd] in Hall.
    destruct e as [|b [|l [|x e']]]; try discriminate.
    apply andb_true_iff in Hall as [Hall Hl]. apply andb_true_iff in Hall as [Hb Hlt].
    apply N.eqb_eq in Hb. subst b.
    destruct (assoc l (decode_simple ++ decode_ansic_only)) as [v|] eqn:El; [|discriminate].
    apply N.eqb_eq in Hl. subst v.
    cbn [app run step step_normal N.eqb Pos.eqb]. rewrite El.
    unfold utf8. rewrite Hlt. destruct (run 2 SNormal r); reflexivity.
  - destruct (needs_ansi_c_quoting c) eqn:Ec.
    + (* three octal digits: the four steps are in the table check [oct_dec_all] *)
      pose proof oct_dec_all as Hall. rewrite forallb_forall in Hall.
      specialize (Hall c (ctrl_range c Ec Hc)). unfold oct_dec_ok in Hall.
      destruct (oct3 c) as [|b [|d1 [|d2 [|d3 [|x e']]]]]; try discriminate.
      cbn [app run].
      destruct (step 2 SNormal b) as [[|? ?] s1| |] eqn:E1; try discriminate.
      destruct (step 2 s1 d1) as [[|? ?] s2| |] eqn:E2; try discriminate.
      destruct (step 2 s2 d2) as [[|? ?] s3| |] eqn:E3; try discriminate.
      destruct (step 2 s3 d3) as [[|v [|? ?]] [| |]| |] eqn:E4; try discriminate.
      apply N.eqb_eq in Hall. subst v.
      unfold utf8. pose proof (ctrl_lt128 c Ec) as Hlt. apply N.ltb_lt in Hlt. rewrite Hlt.
      destruct (run 2 SNormal r); reflexivity.
    + (* the character itself, which is not a backslash *)
      assert (N92 : (c =? 92) = false).
      { apply N.eqb_neq. intros ->. exact (proj2 ansi_named_covers Ea). }
      cbn [app run step]. unfold step_normal. rewrite N92. reflexivity.
Qed.

Lemma run_body s : no_nul s -> forall r,
  run 2 SNormal (ansi_body s ++ r) = match run 2 SNormal r with DOk b => DOk (utf8s s ++ b) | e => e end.
Proof.
  induction 1 as [|c s Hc Hs IH]; intros r.
  - cbn [ansi_body flat_map utf8s app]. destruct (run 2 SNormal r); reflexivity.
  - unfold ansi_body, utf8s in *. cbn [flat_map]. rewrite <- app_assoc, (run_ac_char c Hc), IH.
    destruct (run 2 SNormal r); [rewrite app_assoc|..]; reflexivity.
Qed.

Lemma utf8_nonzero c : c <> 0 -> Forall (fun b => b <> 0) (utf8 c).
Proof.
  intros Hc. unfold utf8.
  destruct (c <? 128) eqn:E1; [apply Forall_cons; [exact Hc | apply Forall_nil]|].
  destruct (c <? 2048); [|destruct (c <? 65536)];
    repeat (apply Forall_cons; [intros H; apply N.eq_add_0 in H as [H _]; discriminate|]); apply Forall_nil.
Qed.

Lemma cut_nul_id b : Forall (fun x => x <> 0) b -> cut_nul b = b.
Proof.
  induction 1 as [|x r Hx Hr IH]; [reflexivity|].
  cbn [cut_nul]. apply N.eqb_neq in Hx. rewrite Hx, IH. reflexivity.
Qed.

Lemma utf8s_nonzero s : no_nul s -> Forall (fun b => b <> 0) (utf8s s).
Proof.
  induction 1 as [|c s Hc Hs IH]; [constructor|].
  unfold utf8s. cbn [flat_map]. apply Forall_app. split; [apply utf8_nonzero; exact Hc | exact IH].
Qed.

(** with the repaired digit count ([zd = 2], bash's rule) the decoder inverts the quoter *)
Theorem decode_ansi_body s : Forall (fun c => c <> 0) s -> decode 2 (ansi_body s) = DOk (utf8s s).
Proof.
  intros Hs. unfold decode. rewrite <- (app_nil_r (ansi_body s)), (run_body s Hs []).
  cbn [run flush]. rewrite app_nil_r, cut_nul_id by (apply utf8s_nonzero; exact Hs). reflexivity.
Qed.

(** with three digits behind the 0 (the unchanged tree) a control character followed by an octal digit
    is read back as one other byte *)
Theorem decode_ansi_body_refuted :
  exists s, Forall (fun c => c <> 0) s /\ decode 3 (ansi_body s) <> DOk (utf8s s).
Proof. exists [1; 55]. split; [repeat constructor; discriminate | vm_compute; discriminate]. Qed.

Example decode_examples :
  decode 2 (ansi_body [1; 55; 233; 10; 39; 127]) = DOk [1; 55; 195; 169; 10; 39; 127] /\
  decode 3 (ansi_body [1; 55]) = DOk [15] /\
  ansi_body [1; 55] = [92; 48; 48; 49; 55].
Proof. vm_compute. repeat split; reflexivity. Qed.

(** the decoder as it is now (regenerated digit count) *)
Theorem decode_ansi_body_current s : Forall (fun c => c <> 0) s ->
  decode zero_octal_digits_ansic (ansi_body s) = DOk (utf8s s).
Proof. change zero_octal_digits_ansic with 2%nat. apply decode_ansi_body. Qed.
