(** C13 theorems: every quoting style of escape.rs, read back by the reader of Reader.v, gives
    the original string. *)
From BV Require Import Base.Prelude gen.C13EscapeTables Quote.Quote Quote.Reader.
Open Scope N_scope.

Lemma mem_false_eqb c k l : mem c l = false -> mem k l = true -> (c =? k) = false.
Proof. intros Hc Hk. apply N.eqb_neq. intros ->. congruence. Qed.

Lemma forallb_mem (P : N -> bool) l c : forallb P l = true -> mem c l = true -> P c = true.
Proof.
  unfold mem. intros Hall Hm. apply existsb_exists in Hm as [x [Hin Heq]]. apply N.eqb_eq in Heq. subst x.
  rewrite forallb_forall in Hall. exact (Hall c Hin).
Qed.

Lemma assoc_In {A} c (l : list (N * A)) e : assoc c l = Some e -> In (c, e) l.
Proof.
  induction l as [|[k v] l IH]; cbn [assoc]; [discriminate|].
  destruct (N.eqb c k) eqn:E.
  - intros H. inversion H. subst. apply N.eqb_eq in E. subst. left. reflexivity.
  - intros H. right. auto.
Qed.

Definition no_nul (s : str) : Prop := Forall (fun c => c <> 0) s.

Lemma read_word_rd p (w : str) : hd HASH w <> HASH -> read_word p w = rd (MU true) w.
Proof.
  destruct w as [|c w]; cbn [hd]; [congruence|]. intros Hc. unfold read_word. destruct p; [|reflexivity].
  apply N.eqb_neq in Hc. unfold HASH in Hc. rewrite Hc. reflexivity.
Qed.

Lemma rd_MD_esc d r : dq_escapable d = true -> rd MD (92 :: d :: r) = ocons d (rd MD r).
Proof. intros H. cbn [rd N.eqb Pos.eqb]. rewrite H. reflexivity. Qed.
Lemma rd_MD_plain c r : (c =? 34) = false -> (c =? 92) = false -> (c =? 36) = false -> (c =? 96) = false ->
  rd MD (c :: r) = ocons c (rd MD r).
Proof. intros H1 H2 H3 H4. cbn [rd]. rewrite H1, H2, H3, H4. reflexivity. Qed.

Lemma rd_MA_named l v r : ansi_named l = Some v -> rd MA (92 :: l :: r) = ocons v (rd MA r).
Proof. intros H. cbn [rd N.eqb Pos.eqb]. rewrite H. reflexivity. Qed.
Lemma rd_MA_oct3 d1 d2 d3 r : ansi_named d1 = None -> is_oct d1 = true -> is_oct d2 = true -> is_oct d3 = true ->
  rd MA (92 :: d1 :: d2 :: d3 :: r) = oct_fin ((d1 - 48) * 64 + (d2 - 48) * 8 + (d3 - 48)) (rd MA r).
Proof. intros Hn H1 H2 H3. cbn [rd N.eqb Pos.eqb]. rewrite Hn, H1, H2, H3. reflexivity. Qed.
Lemma rd_MA_plain c r : (c =? 39) = false -> (c =? 92) = false -> rd MA (c :: r) = ocons c (rd MA r).
Proof. intros H1 H2. cbn [rd]. rewrite H1, H2. reflexivity. Qed.

Lemma rd_MU_esc tp d r : (d =? 10) = false -> rd (MU tp) (92 :: d :: r) = ocons d (rd (MU false) r).
Proof. intros H. cbn [rd N.eqb Pos.eqb]. rewrite H. reflexivity. Qed.
Lemma rd_MU_tilde c r : (c =? 126) = true -> rd (MU false) (c :: r) = ocons c (rd (MU false) r).
Proof. intros H. apply N.eqb_eq in H. subst c. reflexivity. Qed.
Lemma rd_MU_plain tp c r :
  (c =? 39) = false -> (c =? 34) = false -> (c =? 92) = false -> (c =? 36) = false -> (c =? 126) = false ->
  unq_special c = false -> rd (MU tp) (c :: r) = ocons c (rd (MU ((c =? 58) || (c =? 61))) r).
Proof. intros H1 H2 H3 H4 H5 H6. cbn [rd]. rewrite H1, H2, H3, H4, H5, H6. reflexivity. Qed.

Lemma rd_single_both s :
  rd MS (sq_in s) = Some s /\ (forall tp, rd (MU tp) (sq_out s) = Some s).
Proof.
  induction s as [|c r [IHin IHout]].
  - split; [reflexivity | intros tp; reflexivity].
  - split.
    + cbn [sq_in]. unfold SQT, BSL. destruct (c =? 39) eqn:E.
      * apply N.eqb_eq in E. subst c. cbn [rd]. cbn [N.eqb Pos.eqb]. rewrite IHout. reflexivity.
      * cbn [rd]. rewrite E. rewrite IHin. reflexivity.
    + intros tp. cbn [sq_out]. unfold SQT, BSL. destruct (c =? 39) eqn:E.
      * apply N.eqb_eq in E. subst c. cbn [rd]. cbn [N.eqb Pos.eqb]. rewrite IHout. reflexivity.
      * cbn [rd]. cbn [N.eqb Pos.eqb]. rewrite E. rewrite IHin. reflexivity.
Qed.

Theorem read_single p s : read_word p (single_quote s) = Some s.
Proof.
  destruct s as [|c r]; [destruct p; reflexivity|]. unfold single_quote.
  rewrite read_word_rd; [apply rd_single_both|]. cbn [sq_out]. destruct (c =? SQT); discriminate.
Qed.

Lemma dq_table_escapable : forallb dq_escapable dq_escaped_chars = true.
Proof. vm_compute. reflexivity. Qed.

Lemma dq_table_covers :
  mem 34 dq_escaped_chars = true /\ mem 92 dq_escaped_chars = true /\
  mem 36 dq_escaped_chars = true /\ mem 96 dq_escaped_chars = true.
Proof. vm_compute. repeat split; reflexivity. Qed.

Lemma dq_char_cases c :
  (dq_char c = [92; c] /\ dq_escapable c = true) \/
  (dq_char c = [c] /\ (c =? 34) = false /\ (c =? 92) = false /\ (c =? 36) = false /\ (c =? 96) = false).
Proof.
  unfold dq_char. destruct (mem c dq_escaped_chars) eqn:Em.
  - left. split; [reflexivity | exact (forallb_mem _ _ _ dq_table_escapable Em)].
  - right. destruct dq_table_covers as [H34 [H92 [H36 H96]]].
    repeat split; eapply mem_false_eqb; eassumption.
Qed.

Lemma rd_double_body s : rd MD (flat_map dq_char s ++ [DQT]) = Some s.
Proof.
  induction s as [|c r IH]; [reflexivity|]. cbn [flat_map].
  destruct (dq_char_cases c) as [[-> He] | [-> [H1 [H2 [H3 H4]]]]]; cbn [app].
  - rewrite (rd_MD_esc c _ He), IH. reflexivity.
  - rewrite (rd_MD_plain c _ H1 H2 H3 H4), IH. reflexivity.
Qed.

Lemma rd_double tp s : rd (MU tp) (double_quote s) = Some s.
Proof. unfold double_quote, DQT. cbn [rd]. cbn [N.eqb Pos.eqb]. apply rd_double_body. Qed.

Theorem read_double p s : read_word p (double_quote s) = Some s.
Proof. rewrite read_word_rd by (unfold double_quote, DQT; discriminate). apply rd_double. Qed.

Definition named_entry_ok (ke : N * list N) : bool :=
  match snd ke with
  | [b; l] => (b =? 92) && match ansi_named l with Some v => v =? fst ke | None => false end
  | _ => false
  end.

Lemma ansi_named_table_ok : forallb named_entry_ok ansi_c_named = true.
Proof. vm_compute. reflexivity. Qed.

Lemma ansi_named_covers : assoc 39 ansi_c_named <> None /\ assoc 92 ansi_c_named <> None.
Proof. vm_compute. split; discriminate. Qed.

Definition oct_ok (c : N) : bool :=
  match oct3 c with
  | [b; d1; d2; d3] =>
      (b =? 92) && match ansi_named d1 with None => true | Some _ => false end
      && is_oct d1 && is_oct d2 && is_oct d3
      && (((d1 - 48) * 64 + (d2 - 48) * 8 + (d3 - 48)) =? c)
  | _ => false
  end.

Lemma oct_ok_all : forallb oct_ok (map N.of_nat (seq 1 127)) = true.
Proof. vm_compute. reflexivity. Qed.

Lemma ctrl_lt128 c : needs_ansi_c_quoting c = true -> c < 128.
Proof.
  unfold needs_ansi_c_quoting. intros H. apply orb_true_iff in H.
  destruct H as [H|H]; [apply N.ltb_lt in H | apply N.eqb_eq in H]; lia.
Qed.

Lemma ctrl_range c : needs_ansi_c_quoting c = true -> c <> 0 -> In c (map N.of_nat (seq 1 127)).
Proof.
  intros H Hz. pose proof (ctrl_lt128 c H) as Hlt.
  apply in_map_iff. exists (N.to_nat c). split; [lia|]. apply in_seq. lia.
Qed.

Lemma ac_char_cases c : c <> 0 ->
  (exists l, ac_char c = [92; l] /\ ansi_named l = Some c) \/
  (exists d1 d2 d3, ac_char c = [92; d1; d2; d3] /\ ansi_named d1 = None /\
     is_oct d1 = true /\ is_oct d2 = true /\ is_oct d3 = true /\
     (d1 - 48) * 64 + (d2 - 48) * 8 + (d3 - 48) = c /\ c < 128) \/
  (ac_char c = [c] /\ (c =? 39) = false /\ (c =? 92) = false).
Proof.
  intros Hc. unfold ac_char. destruct (assoc c ansi_c_named) as [e|] eqn:Ea.
  - left. apply assoc_In in Ea.
    pose proof (proj1 (forallb_forall _ _) ansi_named_table_ok _ Ea) as H.
    unfold named_entry_ok in H. cbn [fst snd] in H.
    destruct e as [|b [|l [|x e']]]; try discriminate.
    apply andb_true_iff in H as [Hb Hl]. apply N.eqb_eq in Hb. subst b.
    destruct (ansi_named l) as [v|] eqn:El; [|discriminate]. apply N.eqb_eq in Hl. subst v.
    exists l. split; [reflexivity | exact El].
  - destruct (needs_ansi_c_quoting c) eqn:Ec.
    + right. left.
      pose proof (proj1 (forallb_forall _ _) oct_ok_all c (ctrl_range c Ec Hc)) as H. unfold oct_ok in H.
      destruct (oct3 c) as [|b [|d1 [|d2 [|d3 [|x e']]]]]; try discriminate.
      apply andb_true_iff in H as [H Hv]. apply andb_true_iff in H as [H H3].
      apply andb_true_iff in H as [H H2]. apply andb_true_iff in H as [H H1].
      apply andb_true_iff in H as [Hb Hn]. apply N.eqb_eq in Hb, Hv. subst b.
      destruct (ansi_named d1) eqn:En; [discriminate|].
      exists d1, d2, d3. repeat split; try assumption. apply ctrl_lt128. exact Ec.
    + right. right. destruct ansi_named_covers as [H39 H92].
      repeat split; apply N.eqb_neq; intros ->; congruence.
Qed.

Lemma rd_ansi_body s : no_nul s -> rd MA (flat_map ac_char s ++ [SQT]) = Some s.
Proof.
  induction 1 as [|c r Hc Hr IH]; [reflexivity|]. cbn [flat_map]. rewrite <- app_assoc.
  destruct (ac_char_cases c Hc)
    as [[l [-> Hl]] | [[d1 [d2 [d3 [-> [Hn [H1 [H2 [H3 [Hv Hlt]]]]]]]]] | [-> [N39 N92]]]]; cbn [app].
  - rewrite (rd_MA_named l c _ Hl), IH. reflexivity.
  - rewrite (rd_MA_oct3 d1 d2 d3 _ Hn H1 H2 H3), Hv, IH. unfold oct_fin.
    apply N.eqb_neq in Hc. apply N.leb_gt in Hlt. rewrite Hc, Hlt. reflexivity.
  - rewrite (rd_MA_plain c _ N39 N92), IH. reflexivity.
Qed.

Lemma rd_ansi tp s : no_nul s -> rd (MU tp) (ansi_c_quote s) = Some s.
Proof. intros Hs. unfold ansi_c_quote, DOLLAR, SQT. cbn [rd]. cbn [N.eqb Pos.eqb]. apply rd_ansi_body. exact Hs. Qed.

Theorem read_ansi_c p s : no_nul s -> read_word p (ansi_c_quote s) = Some s.
Proof.
  intros Hs. rewrite read_word_rd by (unfold ansi_c_quote, DOLLAR; discriminate). apply rd_ansi. exact Hs.
Qed.

(** the quoter's side of "a tilde here would open a tilde prefix" *)
Definition trig (prev : option char) : bool :=
  match prev with None => true | Some p => (p =? COLON) || (p =? EQUALS) end.

Lemma needs_escaping_at_tilde prev c : (c =? 126) = true -> needs_escaping_at prev c = trig prev.
Proof. intros H. unfold needs_escaping_at, TILDE. rewrite H. reflexivity. Qed.

Definition no_ctrl (s : str) : Prop := Forall (fun c => needs_ansi_c_quoting c = false) s.

Lemma needs_table_covers :
  mem 39 needs_escaping_chars = true /\ mem 34 needs_escaping_chars = true /\
  mem 92 needs_escaping_chars = true /\ mem 36 needs_escaping_chars = true.
Proof. vm_compute. repeat split; reflexivity. Qed.

Lemma needs_table_no_nl_colon_eq :
  mem 10 needs_escaping_chars = false /\ mem 58 needs_escaping_chars = false /\
  mem 61 needs_escaping_chars = false.
Proof. vm_compute. repeat split; reflexivity. Qed.

Lemma not_needs_plain c : needs_escaping c = false ->
  (c =? 39) = false /\ (c =? 34) = false /\ (c =? 92) = false /\ (c =? 36) = false.
Proof.
  unfold needs_escaping. intros H. destruct needs_table_covers as [H39 [H34 [H92 H36]]].
  repeat split; eapply mem_false_eqb; eassumption.
Qed.

Lemma specials_covered :
  forallb (fun k => needs_escaping k || needs_ansi_c_quoting k) unq_special_chars = true.
Proof. vm_compute. reflexivity. Qed.

(** [tp], the reader's "a tilde here opens a tilde prefix", and [prev], the character the quoter
    has just passed, move in step: where the reader is in such a position, so is the quoter *)
Lemma rd_bs_body s : forall prev tp,
  no_ctrl s -> (tp = true -> trig prev = true) ->
  rd (MU tp) (bs_body true prev s) = Some s.
Proof.
  induction s as [|c r IH]; intros prev tp Hctl Htp; [reflexivity|].
  inversion Hctl as [|? ? Hc Hr]; subst.
  cbn [bs_body]. destruct (esc_here true prev c) eqn:Ee; cbn [app].
  - assert (N10 : (c =? 10) = false).
    { apply N.eqb_neq. intros ->. vm_compute in Hc. discriminate. }
    rewrite (rd_MU_esc tp c _ N10), (IH (Some c) false Hr) by discriminate. reflexivity.
  - unfold esc_here in Ee. apply orb_false_iff in Ee as [En Ep]. cbn [andb] in Ep.
    destruct (not_needs_plain c En) as [N39 [N34 [N92 N36]]].
    destruct (c =? 126) eqn:E126.
    + (* a tilde is left alone only where it opens no tilde prefix *)
      rewrite (needs_escaping_at_tilde prev c E126) in Ep.
      assert (Htf : tp = false).
      { destruct tp; [|reflexivity]. rewrite (Htp eq_refl) in Ep. discriminate. }
      subst tp. rewrite (rd_MU_tilde c _ E126), (IH (Some c) false Hr) by discriminate. reflexivity.
    + destruct (unq_special c) eqn:Es.
      { pose proof (forallb_mem _ _ _ specials_covered Es) as H. cbn beta in H. rewrite En in H. cbn [orb] in H. congruence. }
      (* behind [c] the reader is in a tilde-prefix position when [trig (Some c)] *)
      rewrite (rd_MU_plain tp c _ N39 N34 N92 N36 E126 Es), (IH (Some c) ((c =? 58) || (c =? 61)) Hr (fun H => H)).
      reflexivity.
Qed.

Lemma bs_body_id pos s : forall prev, any_needs pos prev s = false -> bs_body pos prev s = s.
Proof.
  induction s as [|c r IH]; intros prev H; [reflexivity|].
  cbn [any_needs] in H. apply orb_false_iff in H as [He Hr].
  cbn [bs_body]. rewrite He, (IH _ Hr). reflexivity.
Qed.

Theorem read_bs_body p s : s <> [] -> no_ctrl s -> read_word p (bs_body true None s) = Some s.
Proof.
  intros Hne Hctl. destruct s as [|c r]; [congruence|].
  rewrite read_word_rd; [apply rd_bs_body; [exact Hctl | reflexivity]|].
  cbn [bs_body]. destruct (esc_here true None c) eqn:Ee; [discriminate|].
  (* an unescaped first character is not # *)
  cbn [app hd]. intros ->. vm_compute in Ee. discriminate.
Qed.

Lemma read_raw p s : s <> [] -> no_ctrl s -> any_needs true None s = false -> read_word p s = Some s.
Proof. intros Hne Hc Ha. rewrite <- (bs_body_id true s None Ha) at 1. apply read_bs_body; assumption. Qed.

Theorem read_backslash p s : no_ctrl s -> read_word p (backslash_escape true s) = Some s.
Proof.
  intros Hctl. destruct s as [|c r]; [destruct p; reflexivity|].
  unfold backslash_escape. destruct (any_needs true None (c :: r)) eqn:Ea.
  - apply read_bs_body; [discriminate | exact Hctl].
  - apply read_raw; [discriminate | exact Hctl | exact Ea].
Qed.

Lemma use_ansi_c_false o s : avoid_nl o = false -> use_ansi_c o s = false -> no_ctrl s.
Proof.
  intros Ha. unfold use_ansi_c. rewrite Ha. induction s as [|c r IH]; intros H.
  - constructor.
  - cbn [existsb] in H. apply orb_false_iff in H. destruct H as [Hc Hr].
    cbn [negb orb] in Hc. rewrite andb_true_r in Hc. constructor; [exact Hc | exact (IH Hr)].
Qed.

(** [avoid_nl = false]: every option set reachable through [force_quote]/[quote_if_needed] *)
Theorem read_quote p o s : avoid_nl o = false -> no_nul s -> read_word p (quote true o s) = Some s.
Proof.
  intros Ha Hn. unfold quote. destruct (use_ansi_c o s) eqn:Eu.
  - apply read_ansi_c. exact Hn.
  - pose proof (use_ansi_c_false o s Ha Eu) as Hctl.
    destruct (always_quote o || is_nil s || any_needs true None s) eqn:Eq.
    + destruct (preferred o).
      * apply read_single.
      * apply read_double.
      * apply read_backslash. exact Hctl.
    + apply orb_false_iff in Eq. destruct Eq as [Eq Ean]. apply orb_false_iff in Eq. destruct Eq as [_ Enil].
      apply read_raw; [destruct s; [discriminate | discriminate] | exact Hctl | exact Ean].
Qed.

(** Forced single/double quoting never consults [needs_escaping]: any [pos]. *)
Theorem read_force_quote pos p m s : m <> QBackslash -> no_nul s ->
  read_word p (force_quote pos m s) = Some s.
Proof.
  intros Hm Hn. unfold force_quote, quote. cbn [always_quote preferred orb].
  destruct (use_ansi_c _ s).
  - apply read_ansi_c. exact Hn.
  - destruct m; [apply read_single | apply read_double | congruence].
Qed.

(** the strings on which the position-dependent test (absent from the unchanged tree) matters *)
Fixpoint has_pos_trigger (prev : option char) (s : str) : bool :=
  match s with
  | [] => false
  | c :: r => needs_escaping_at prev c || has_pos_trigger (Some c) r
  end.
Definition Known (s : str) : Prop := has_pos_trigger None s = true.

Lemma no_trigger_same s : forall prev, has_pos_trigger prev s = false ->
  any_needs false prev s = any_needs true prev s /\ bs_body false prev s = bs_body true prev s.
Proof.
  induction s as [|c r IH]; intros prev H; [split; reflexivity|].
  cbn [has_pos_trigger] in H. apply orb_false_iff in H. destruct H as [Hc Hr].
  destruct (IH _ Hr) as [IH1 IH2].
  cbn [any_needs bs_body]. unfold esc_here. rewrite Hc, IH1, IH2. cbn [andb].
  split; reflexivity.
Qed.

Lemma quote_outside_known o s : ~ Known s -> quote false o s = quote true o s.
Proof.
  intros Hk. unfold Known in Hk. apply not_true_is_false in Hk.
  destruct (no_trigger_same s None Hk) as [H1 H2].
  unfold quote, backslash_escape. rewrite H1, H2. reflexivity.
Qed.

Theorem read_quote_outside_known p o s : avoid_nl o = false -> no_nul s -> ~ Known s ->
  read_word p (quote false o s) = Some s.
Proof. intros Ha Hn Hk. rewrite quote_outside_known by exact Hk. apply read_quote; assumption. Qed.

(** a lone tilde is printed unquoted by the backslash style (printf %q) and by every if-needed
    style (set, declare, the xtrace line, associative keys); # likewise in argument position *)
Theorem if_needed_refuted : forall m,
  exists s, no_nul s /\ forall p, read_word p (quote_if_needed false m s) <> Some s.
Proof. intros m. exists [TILDE]. split; [repeat constructor; discriminate|]. intros p. destruct p, m; vm_compute; discriminate. Qed.

Theorem hash_refuted :
  exists s, no_nul s /\ read_word Arg (quote_if_needed false QBackslash s) <> Some s.
Proof. exists [HASH; 120]. split; [repeat constructor; discriminate|]. vm_compute. discriminate. Qed.

Theorem colon_tilde_refuted :
  exists s, no_nul s /\ read_word Assign (quote_if_needed false QBackslash s) <> Some s.
Proof. exists [97; COLON; TILDE]. split; [repeat constructor; discriminate|]. vm_compute. discriminate. Qed.

(** [avoid_nl = true], not reachable through the public functions, would print a newline raw *)
Theorem avoid_nl_refuted :
  exists o s, avoid_nl o = true /\ no_nul s /\ read_word Assign (quote true o s) <> Some s.
Proof.
  exists {| always_quote := false; preferred := QSingle; avoid_nl := true |}, [97; NL; 98].
  split; [reflexivity|]. split; [repeat constructor; discriminate|]. vm_compute. discriminate.
Qed.

(** non-vacuity (the forced double-quoted example holds a tab, so it comes out in ANSI-C quotes) *)
Example read_quote_example :
  read_word Arg (quote_if_needed true QBackslash [TILDE; 97; 32; 39; 36]) = Some [TILDE; 97; 32; 39; 36]
  /\ quote_if_needed true QBackslash [TILDE; 97; 32; 39; 36] = [92; TILDE; 97; 92; 32; 92; 39; 92; 36]
  /\ quote_if_needed true QSingle [97; 39; 98] = [39; 97; 39; 92; 39; 39; 98; 39]
  /\ force_quote true QDouble [97; 34; 9] = [36; 39; 97; 34; 92; 116; 39].
Proof. vm_compute. repeat split; reflexivity. Qed.

(** the code as it is now (regenerated flag) *)
Lemma positional_now : positional_escaping = true.
Proof. reflexivity. Qed.

Theorem read_quote_current p o s : avoid_nl o = false -> no_nul s ->
  read_word p (quote positional_escaping o s) = Some s.
Proof. rewrite positional_now. apply read_quote. Qed.
