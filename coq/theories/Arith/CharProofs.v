(** Second half of the character-level instance: the pre-phase facts of [TokProofs.table_facts]
    (inputs led by an operator, a number, an identifier), the record [char_facts], and the
    character-level round trip [parse_render]. *)
From Coq Require Import String.
From BV Require Import Base.Prelude Base.Codec Arith.Wrap64 Arith.Ast Arith.Lit Arith.PegPrec
  gen.C07ArithTable Arith.PegFacts Arith.TokProofs Arith.CharLex.

(* one rule run on an input whose first characters are known *)
Ltac pcbn :=
  cbn [rk rels rctor rargs run_elems lx_tok lx_not lx_ws lx_lvalue lx_number char_lexer drop_prefix N.eqb Pos.eqb app
       char_not in_class existsb fst snd N.leb N.compare Pos.compare Pos.compare_cont negb orb andb].

(* the first [lit "…"] of the goal as a list of character codes *)
Ltac eval_op :=
  match goal with
  | |- context [lit ?t] => let v := eval vm_compute in (lit t) in change (lit t) with v
  end.

Lemma cpre_op rec (c : char) (t : str) (s : T) k r e s' :
  find_level (pre_keep (prule_rejects [(c, c)])) 0 arith_table = Some (k, r) ->
  crun_pre rec k r ((c :: t) ++ cont s) = PMatch e s' ->
  cfirst_pre rec 0 arith_table (show_toks (TOp (c :: t) :: s)) = PMatch e s'.
Proof.
  intros Hf Hr. rewrite show_toks_cons. cbn [show_tok].
  assert (Hc : in_class [(c, c)] c = true) by (unfold in_class; cbn [existsb fst snd]; lia).
  exact (first_pre_hit (prule_rejects_ok rec _ c _ Hc) 0%nat Hf Hr).
Qed.

Lemma cpre_num rec z r : oknum z ->
  cfirst_pre rec 0 arith_table (show_toks (TNum z :: r)) = PMatch (ELit z) (cont r).
Proof.
  intros Hz. rewrite show_toks_cons. cbn [show_tok].
  destruct (oknum_first z (cont r) Hz) as (c & s' & E & Hc).
  pose proof (literal_number_show z r Hz) as Hl. rewrite E in *.
  assert (Hcls : in_class digit_class c = true) by (unfold digit_class; class_solve).
  apply (first_pre_hit (prule_rejects_ok rec _ c _ Hcls) (lv := arith_table) (k' := 18%nat)
           (r := mkRule KAtom [ENum] CLit [0%nat]) 0%nat eq_refl).
  unfold run_pre. pcbn. rewrite Hl. reflexivity.
Qed.

Lemma cpre_un rec o s a s' : first_ok ident_ok oknum opok s ->
  rec (unlevel o) (show_toks s) = PMatch a s' ->
  cfirst_pre rec 0 arith_table (show_toks (TOp (untok o) :: s)) = PMatch (EUn o a) s'.
Proof.
  intros Hs Hrec. pose proof (skip_ws_cont s Hs) as HX.
  (* the guards [!['+']], [!['-']] look at the blank *)
  assert (Hnot : forall c, N.eqb c SPC = false -> char_not [(c, c)] (cont s) = true).
  { intros c Hc. destruct s; [destruct Hs|]. unfold char_not, in_class. cbn [cont existsb fst snd]. lia. }
  destruct o; unfold untok; cbn [unlevel] in Hrec; eval_op; (eapply cpre_op; [reflexivity|]); unfold run_pre; pcbn.
  - rewrite HX, Hrec. reflexivity.
  - rewrite HX, Hrec. reflexivity.
  - rewrite (Hnot 43%N eq_refl), HX, Hrec. reflexivity.
  - rewrite (Hnot 45%N eq_refl), HX, Hrec. reflexivity.
Qed.

Lemma cpre_paren rec s e s' : first_ok ident_ok oknum opok s ->
  rec 0%nat (show_toks s) = PMatch e (cont (RP :: s')) ->
  cfirst_pre rec 0 arith_table (show_toks (LP :: s)) = PMatch e (cont s').
Proof.
  intros Hs Hrec. unfold LP. eval_op. eapply cpre_op; [reflexivity|].
  unfold run_pre. pcbn. rewrite (skip_ws_cont s Hs), Hrec.
  rewrite (skip_ws_cont_cons RP s' eq_refl). reflexivity.
Qed.

Lemma cpre_preincr rec (inc : bool) x r : ident_ok x ->
  cfirst_pre rec 0 arith_table (show_toks (TOp (if inc then lit "++" else lit "--") :: TId x :: r))
  = PMatch (EIncr (if inc then PreInc else PreDec) x None) (cont r).
Proof.
  intros Hx. destruct (okid_first_not_ws x [] Hx) as (c & x' & E & Hc). rewrite app_nil_r in E.
  assert (Hz : skip_ws arith_lex (cont (TId x :: r)) = x ++ cont r)
    by (apply skip_ws_cont_cons; cbn [show_tok]; rewrite E; exact Hc).
  rewrite show_toks_cons. cbn [show_tok].
  (* the unary sign is tried first and fails on its look-ahead guard, [!['+']] or [!['-']] *)
  destruct inc; eval_op; cbn [app].
  - rewrite (first_pre_kept (prule_rejects_ok rec [(43, 43)%N] 43%N _ eq_refl)). eval_kept.
    cbn [try_pre]. unfold run_pre. pcbn. rewrite Hz, (lvalue_ident _ x _ Hx (cont_head r)). reflexivity.
  - rewrite (first_pre_kept (prule_rejects_ok rec [(45, 45)%N] 45%N _ eq_refl)). eval_kept.
    cbn [try_pre]. unfold run_pre. pcbn. rewrite Hz, (lvalue_ident _ x _ Hx (cont_head r)). reflexivity.
Qed.

Lemma cpre_level_nil rec k (s : list N) : cfirst_pre_level rec k [] s = PFail.
Proof. reflexivity. Qed.

Lemma cpre_id (atend : bool) rec x (r : T) (p X : str) k ru e s' : rec_good rec -> ident_ok x ->
  skip_ws arith_lex (cont r) = p ++ X -> (if atend return Prop then X = [] else True) ->
  find_level (pre_keep (id_rejects atend p)) 0 arith_table = Some (k, ru) ->
  crun_pre rec k ru (x ++ cont r) = PMatch e s' ->
  cfirst_pre rec 0 arith_table (show_toks (TId x :: r)) = PMatch e s'.
Proof.
  intros Hg Hx Hz Hend Hf Hr. rewrite show_toks_cons. cbn [show_tok].
  exact (first_pre_hit (id_rejects_ok atend rec x _ p X Hg Hx (cont_head r) Hz Hend) 0%nat Hf Hr).
Qed.
Arguments cpre_id atend rec x {r p X k ru e s'}.

Definition ref_rule : rule := mkRule KAtom [ELval] CRef [0%nat].

Lemma ref_found_nil : find_level (pre_keep (id_rejects true [])) 0 arith_table = Some (18%nat, ref_rule).
Proof. reflexivity. Qed.
Lemma ref_found f atend :
  find_level (pre_keep (id_rejects atend (ftext f atend))) 0 arith_table = Some (18%nat, ref_rule).
Proof. destruct f as [| | |o]; [| | |destruct o]; destruct atend; reflexivity. Qed.

Lemma cpre_ref rec x r : rec_good rec -> ident_ok x -> (r = [] \/ exists f r', r = tok_of_f f :: r') ->
  cfirst_pre rec 0 arith_table (show_toks (TId x :: r)) = PMatch (ERef x None) (cont r).
Proof.
  intros Hg Hx Hr.
  assert (Hrun : crun_pre rec 18 ref_rule (x ++ cont r) = PMatch (ERef x None) (cont r)).
  { unfold run_pre, ref_rule. pcbn. rewrite (lvalue_ident _ x _ Hx (cont_head r)). reflexivity. }
  destruct Hr as [->|(f & r' & ->)].
  - exact (cpre_id true rec x (r := []) (p := []) (X := []) Hg Hx eq_refl eq_refl ref_found_nil Hrun).
  - destruct (follow_text f r') as (atend & X & Hz & Hend).
    exact (cpre_id atend rec x (p := ftext f atend) Hg Hx Hz Hend (ref_found f atend) Hrun).
Qed.

(** the assignment rules, as the table has them at level 1 *)
Definition assign_rule (t : str) (c : ctor) : rule :=
  mkRule (KPrefix true) [ELval; EWs; ETok t; EWs] c [0; 1]%nat.

Lemma cpre_assign_rule rec t c x s rhs s' e : rec_good rec -> ident_ok x -> opok t ->
  first_ok ident_ok oknum opok s -> rec 1%nat (show_toks s) = PMatch rhs s' ->
  find_level (pre_keep (id_rejects false (t ++ [SPC]))) 0 arith_table = Some (1%nat, assign_rule t c) ->
  build c [VT x None; VE rhs] = Some e ->
  cfirst_pre rec 0 arith_table (show_toks (TId x :: TOp t :: s)) = PMatch e s'.
Proof.
  intros Hg Hx Ht Hs Hrec Hf Hb. pose proof (skip_ws_cont_op t s Ht Hs) as Hz.
  apply (cpre_id false rec x Hg Hx Hz I Hf).
  unfold run_pre, assign_rule. pcbn.
  rewrite (lvalue_ident _ x _ Hx (cont_head _)), Hz, <- app_assoc, drop_prefix_app. pcbn.
  rewrite skip_ws_spc, (skip_ws_enc s Hs), Hrec. unfold finish. cbn [rargs rctor rev app select nth_error].
  rewrite Hb. reflexivity.
Qed.
Arguments cpre_assign_rule rec t c x s {rhs s' e}.

Lemma cpre_assign rec x s rhs s' : rec_good rec -> ident_ok x -> first_ok ident_ok oknum opok s ->
  rec 1%nat (show_toks s) = PMatch rhs s' ->
  cfirst_pre rec 0 arith_table (show_toks (TId x :: TOp (lit "=") :: s)) = PMatch (EAssign x None rhs) s'.
Proof.
  intros Hg Hx Hs Hrec.
  exact (cpre_assign_rule rec (lit "=") CAssign x s Hg Hx eq_refl Hs Hrec eq_refl eq_refl).
Qed.

Lemma cpre_binassign rec o x s rhs s' : rec_good rec -> has_assign o = true -> ident_ok x ->
  first_ok ident_ok oknum opok s -> rec 1%nat (show_toks s) = PMatch rhs s' ->
  cfirst_pre rec 0 arith_table (show_toks (TId x :: TOp (assigntok o) :: s)) = PMatch (EBinAssign o x None rhs) s'.
Proof.
  intros Hg Ho Hx Hs Hrec.
  refine (cpre_assign_rule rec (assigntok o) (CBinAssign o) x s Hg Hx _ Hs Hrec _ eq_refl).
  - destruct o; reflexivity.
  - destruct o; try discriminate; reflexivity.
Qed.

Lemma cpre_postincr rec (inc : bool) x r : rec_good rec -> ident_ok x ->
  cfirst_pre rec 0 arith_table (show_toks (TId x :: TOp (if inc then lit "++" else lit "--") :: r))
  = PMatch (EIncr (if inc then PostInc else PostDec) x None) (cont r).
Proof.
  intros Hg Hx.
  assert (Hz : forall t, opok t -> skip_ws arith_lex (cont (TOp t :: r)) = t ++ cont r)
    by (intros t Ht; exact (skip_ws_cont_cons (TOp t) r Ht)).
  assert (Hrun : forall t o, opok t ->
            crun_pre rec 17 (mkRule KAtom [ELval; EWs; ETok t] (CIncr o) [0%nat]) (x ++ cont (TOp t :: r))
            = PMatch (EIncr o x None) (cont r)).
  { intros t o Ht. unfold run_pre. pcbn.
    rewrite (lvalue_ident _ x _ Hx (cont_head _)), (Hz t Ht), drop_prefix_app. reflexivity. }
  destruct inc.
  - exact (cpre_id false rec x (p := lit "++") Hg Hx (Hz (lit "++") eq_refl) I eq_refl (Hrun (lit "++") PostInc eq_refl)).
  - exact (cpre_id false rec x (p := lit "--") Hg Hx (Hz (lit "--") eq_refl) I eq_refl (Hrun (lit "--") PostDec eq_refl)).
Qed.

Lemma cont_size r : (length r <= length (cont r))%nat.
Proof.
  induction r as [|t r IH]; [cbn; lia|].
  unfold cont. rewrite show_toks_cons. cbn [length]. rewrite app_length. lia.
Qed.

Lemma char_facts : table_facts str CL show_toks cont ident_ok oknum opok rec_good.
Proof.
  constructor.
  - intros r. apply cont_size.
  - intros rec z r Hz. apply cpre_num. exact Hz.
  - intros o Ho. cbn in Ho. repeat (destruct Ho as [<-|Ho]; [reflexivity|]). destruct Ho.
  - intros f Hf. apply rec_good_parse. exact Hf.
  - intros. apply cpre_ref; assumption.
  - intros. apply cpre_preincr; assumption.
  - intros. apply cpre_postincr; assumption.
  - intros. apply cpre_un; assumption.
  - intros. apply cpre_assign; assumption.
  - intros. apply cpre_binassign; assumption.
  - intros. apply cpre_paren; assumption.
  - intros. apply cpost_bin; assumption.
  - intros. eapply cpost_cond; eassumption.
  - intros. apply cpost_stop; assumption.
Qed.

Lemma show_toks_length ts : first_ok ident_ok oknum opok ts -> (length ts <= length (show_toks ts))%nat.
Proof.
  intros H. destruct (first_ok_head ts H) as (c & s' & E & Hc).
  destruct ts as [|t r]; [destruct H|]. rewrite show_toks_cons in *. rewrite app_length.
  pose proof (cont_size r). cbn [length].
  destruct (show_tok t) as [|c0 s0]; [|cbn [length]; lia].
  exfalso. cbn [app] in E. unfold cont in E. destruct r; [discriminate|]. injection E as <- _. discriminate.
Qed.

(** parse ∘ render = id at character level: brush's parser (model: the regenerated table, the
    algorithm of rust-peg, the lexical rules) maps every one-blank rendering of a tree from bash's
    operator table — minimal or any redundant parentheses — back to the tree. *)
Theorem parse_render : forall e ts tq, R 0 e ts tq -> lex_ok ident_ok oknum e ->
  parse_opt str CL arith_table (blank_zero arith_lex) (show_toks ts) = Some e.
Proof.
  intros e ts tq HR Hok.
  pose proof (R_first_ok char_facts HR Hok []) as Hf.
  rewrite app_nil_r in Hf.
  pose proof (skip_ws_enc ts Hf) as Hws. pose proof (show_toks_length ts Hf) as Hlen.
  destruct (first_ok_head ts Hf) as (c & s' & E & Hc).
  pose proof (gparse_render char_facts HR Hok
                0%nat [] (S (length (show_toks ts))) (le_n _) (or_introl eq_refl)) as Hp.
  rewrite app_nil_r in Hp. specialize (Hp ltac:(lia)).
  assert (Hfull : forall b0, parse_full str CL arith_table b0 (show_toks ts) = PMatch e []).
  { intros b0. unfold parse_full. cbn [lx_empty lx_ws lx_size char_lexer].
    rewrite Hws. assert (He : (match show_toks ts with [] => true | _ :: _ => false end) = false) by (rewrite E; reflexivity).
    destruct b0; rewrite He, Hp; reflexivity. }
  unfold parse_opt. rewrite Hfull. reflexivity.
Qed.

Lemma wf_chars_lex_ok e : wf_chars e -> lex_ok ident_ok oknum e.
Proof.
  induction e using aexpr_ind'; cbn [wf_chars lex_ok]; try tauto.
  - unfold oknum, M63. lia.
Qed.

Theorem parse_render_char : parse_render_stmt.
Proof.
  intros e ts tq HR Hwf. apply (parse_render e ts tq HR). apply wf_chars_lex_ok. exact Hwf.
Qed.
