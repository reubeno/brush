(** Theorems about the evaluator model (Arith/Eval.v). They hold for every parser of variable
    contents ([parse] is a section variable), every environment, every fuel. *)
From BV Require Import Base.Prelude Arith.Wrap64 Arith.Ast Arith.Eval.

Lemma lookup_update_same x v en : lookup x (update x v en) = Some v.
Proof.
  induction en as [|[y w] en IH]; cbn.
  - rewrite str_eqb_refl. reflexivity.
  - destruct (str_eqb x y) eqn:E; cbn; rewrite E; [reflexivity|exact IH].
Qed.
Lemma lookup_update_other x y v en : x <> y -> lookup y (update x v en) = lookup y en.
Proof.
  intros Hne. induction en as [|[z w] en IH]; cbn.
  - destruct (str_eqb y x) eqn:E; [apply str_eqb_eq in E; congruence|reflexivity].
  - destruct (str_eqb x z) eqn:E; cbn.
    + apply str_eqb_eq in E. subst z.
      destruct (str_eqb y x) eqn:E2; [apply str_eqb_eq in E2; congruence|reflexivity].
    + destruct (str_eqb y z); [reflexivity|exact IH].
Qed.

Lemma as_u64_range r : 0 <= as_u64 r < M64.
Proof. unfold as_u64. apply Z.mod_pos_bound. reflexivity. Qed.

Lemma arith_div l r : arith Div l r = if r =? 0 then AErr EDivZero else AOk (wrap64 (Z.quot l r)).
Proof. cbn. destruct (Z.eqb_spec r 0); [|rewrite wdiv_some by assumption]; reflexivity. Qed.
Lemma arith_mod l r : arith Mod l r = if r =? 0 then AErr EDivZero else AOk (wrap64 (Z.rem l r)).
Proof. cbn. destruct (Z.eqb_spec r 0); [|rewrite wrem_some by assumption]; reflexivity. Qed.
Lemma arith_pow l r : arith Pow l r = if r >=? 0 then AOk (wrap64 (l ^ as_u64 r)) else AErr ENegExp.
Proof. cbn. rewrite wpow_correct by apply as_u64_range. reflexivity. Qed.

Lemma arith_answers o l r : o <> LAnd -> o <> LOr ->
  (exists v, arith o l r = AOk v) \/ (exists e, arith o l r = AErr e).
Proof.
  intros H1 H2. destruct o; try congruence; try (left; eexists; reflexivity).
  - rewrite arith_mod. destruct (r =? 0); eauto.
  - rewrite arith_div. destruct (r =? 0); eauto.
  - rewrite arith_pow. destruct (r >=? 0); eauto.
Qed.

Theorem div0_iff o l r : arith o l r = AErr EDivZero <-> (o = Div \/ o = Mod) /\ r = 0.
Proof.
  split.
  - destruct o; try (cbn; congruence).
    + rewrite arith_mod. destruct (Z.eqb_spec r 0); [auto|discriminate].
    + rewrite arith_div. destruct (Z.eqb_spec r 0); [auto|discriminate].
    + rewrite arith_pow. destruct (r >=? 0); discriminate.
  - intros [[-> | ->] ->]; reflexivity.
Qed.
Theorem negexp_iff o l r : arith o l r = AErr ENegExp <-> o = Pow /\ r < 0.
Proof.
  split.
  - destruct o; try (cbn; congruence).
    + rewrite arith_mod. destruct (r =? 0); discriminate.
    + rewrite arith_div. destruct (r =? 0); discriminate.
    + rewrite arith_pow. destruct (Z.geb_spec r 0); [discriminate|auto].
  - intros [-> H]. rewrite arith_pow. destruct (Z.geb_spec r 0); [lia|reflexivity].
Qed.

Theorem arith_spec o l r v : inr l -> inr r -> arith o l r = AOk v ->
  match o with
  | Add => v = wrap64 (l + r)
  | Sub => v = wrap64 (l - r)
  | Mul => v = wrap64 (l * r)
  | Div => r <> 0 /\ v = wrap64 (Z.quot l r)
  | Mod => r <> 0 /\ v = Z.rem l r
  | Pow => 0 <= r /\ v = wrap64 (l ^ r)
  | Shl => v = wrap64 (l * 2 ^ (r mod 64))
  | Shr => v = l / 2 ^ (r mod 64)
  | Lt => v = b2z (l <? r) | Le => v = b2z (l <=? r) | Gt => v = b2z (l >? r) | Ge => v = b2z (l >=? r)
  | Eq => v = b2z (l =? r) | Ne => v = b2z (negb (l =? r))
  | BAnd => v = Z.land l r | BOr => v = Z.lor l r | BXor => v = Z.lxor l r
  | Comma => v = r
  | LAnd | LOr => False
  end.
Proof.
  intros Hl Hr. destruct o; try (cbn; intros H; injection H as <-; reflexivity); try (cbn; congruence).
  - cbn. intros H; injection H as <-. apply wshl_spec.
  - cbn. intros H; injection H as <-. apply wshr_spec.
  - rewrite arith_mod. destruct (Z.eqb_spec r 0); [discriminate|].
    intros H; injection H as <-. split; [assumption|]. apply wrap64_id, rem_range; assumption.
  - rewrite arith_div. destruct (Z.eqb_spec r 0); [discriminate|].
    intros H; injection H as <-. auto.
  - rewrite arith_pow. destruct (Z.geb_spec r 0) as [Hr0|_]; [|discriminate].
    intros H; injection H as <-. split; [exact Hr0|].
    unfold as_u64. rewrite Z.mod_small; [reflexivity|unfold inr, M63, M64 in *; lia].
Qed.

Lemma b2z_range b : inr (b2z b).
Proof. destruct b; unfold inr, M63; cbn; lia. Qed.

Theorem arith_in_range o l r v : inr l -> inr r -> arith o l r = AOk v -> inr v.
Proof.
  intros Hl Hr.
  destruct o; try (cbn; congruence);
    try (cbn; intros H; injection H as <-;
         auto using b2z_range, wadd_range, wsub_range, wmul_range, lor_range, lxor_range, land_range, wshr_range).
  - apply wrap64_range.
  - rewrite arith_mod. destruct (r =? 0); [discriminate|]. intros H; injection H as <-. apply wrap64_range.
  - rewrite arith_div. destruct (r =? 0); [discriminate|]. intros H; injection H as <-. apply wrap64_range.
  - rewrite arith_pow. destruct (r >=? 0); [|discriminate]. intros H; injection H as <-. apply wrap64_range.
Qed.

Lemma apply_unary_in_range o v : inr v -> inr (apply_unary o v).
Proof.
  intros H. destruct o; cbn [apply_unary]; [apply b2z_range|apply bnot_range; assumption|assumption|apply wneg_range].
Qed.

Lemma apply_binary_arith ev o l r depth en : o <> LAnd -> o <> LOr ->
  apply_binary ev o l r depth en =
  bind (ev l depth en) (fun lv en1 => bind (ev r depth en1) (fun rv en2 =>
    match arith o lv rv with AOk v => ROk v en2 | AErr e => RErr e en2 | APanic => RPanic | AFuel => RFuel end)).
Proof. intros H1 H2. destruct o; try reflexivity; congruence. Qed.

Lemma binop_logical_dec o : {o = LOr} + {o = LAnd} + {o <> LAnd /\ o <> LOr}.
Proof. destruct o; auto; right; split; congruence. Qed.

(** That [eval] never panics, that its values are i64 and that enough fuel never runs out are
    three instances of one fact.  Calls are classified by [C fuel e depth], environments by [E],
    values by [V]; if an admissible call only makes admissible calls, the operators preserve [V]
    and assignments preserve [E], then every result of an admissible call is of the kind [sat]
    describes.  [F] and [Pn] say whether running out of fuel and panicking are allowed outcomes. *)
Definition index (i : option aexpr) : list aexpr := match i with Some ie => [ie] | None => [] end.

(** the expressions that [eval (S f) e] passes to [eval f] at the same depth *)
Definition children (e : aexpr) : list aexpr :=
  match e with
  | ELit _ => []
  | ERef _ i | EIncr _ _ i => index i
  | EUn _ a => [a]
  | EBin _ a b => [a; b]
  | ECond c t e2 => [c; t; e2]
  | EAssign _ i a => a :: index i
  | EBinAssign _ x i a => ERef x i :: a :: index i
  end.

(** the text [deref_lvalue] parses for an unsubscripted variable *)
Definition var_str (nounset : bool) (x : str) (en : env) : option str :=
  match lookup x en with Some s => Some s | None => if nounset then None else Some [] end.

Section Invariant.
  Variable parse : str -> option aexpr.
  Variable nounset : bool.
  Variable max_depth : Z.
  Variable C : nat -> aexpr -> Z -> Prop.
  Variable V : Z -> Prop.
  Variable E : env -> Prop.
  Variables F Pn : Prop.

  Notation eval := (eval parse nounset max_depth).
  Notation deref := (deref parse nounset max_depth).

  Definition sat (r : res) : Prop :=
    match r with ROk v en => V v /\ E en | RErr _ en => E en | RFuel => F | RPanic => Pn end.

  Hypothesis C_fuel : forall e d, C O e d -> F.
  Hypothesis C_child : forall f e d e', C (S f) e d -> In e' (children e) -> C f e' d.
  Hypothesis C_incr : forall f o x i d, C (S f) (EIncr o x i) d -> C (S f) (ERef x i) d.
  (** the contents of a variable: a literal is evaluated at the same depth, anything else one
      level deeper, after the two checks on [depth + 1] *)
  Hypothesis C_var : forall f x d en s p, C (S f) (ERef x None) d -> E en ->
    var_str nounset x en = Some s -> parse s = Some p ->
    if is_literal p then C f p d
    else (U32_MAX < d + 1 -> Pn) /\ (d + 1 <= max_depth -> C f p (d + 1)).
  Hypothesis V_lit : forall f z d, C (S f) (ELit z) d -> V z.
  Hypothesis V_unary : forall o v, V v -> V (apply_unary o v).
  Hypothesis V_arith : forall o l r v, V l -> V r -> arith o l r = AOk v -> V v.
  Hypothesis V_b2z : forall b, V (b2z b).
  Hypothesis E_update : forall x v en, E en -> E (update x (show_Z v) en).

  Definition ev_sat (f : nat) (ev : evalfn) : Prop :=
    forall e d en, C f e d -> E en -> sat (ev e d en).

  Lemma bind_sat r k : sat r -> (forall v en, V v -> E en -> sat (k v en)) -> sat (bind r k).
  Proof. destruct r; cbn; [intros [Hv He] Hk; apply Hk; assumption|auto..]. Qed.

  Lemma assign_sat f ev x i v d en : ev_sat f ev -> (forall ie, In ie (index i) -> C f ie d) ->
    V v -> E en -> sat (assign ev x i v d en).
  Proof.
    intros Hev Hi Hv He. destruct i as [ie|]; cbn.
    - apply bind_sat; [apply Hev; [apply Hi; left; reflexivity|exact He]|].
      intros _ en1 _ He1. exact He1.
    - split; [exact Hv|apply E_update, He].
  Qed.

  Lemma deref_sat f ev x i d en : ev_sat f ev -> C (S f) (ERef x i) d -> E en ->
    sat (deref ev x i d en).
  Proof.
    intros Hev Hc He. destruct i as [ie|]; cbn.
    - apply bind_sat; [apply Hev; [apply (C_child _ _ _ _ Hc); left; reflexivity|exact He]|].
      intros _ en1 _ He1. exact He1.
    - fold (var_str nounset x en). destruct (var_str nounset x en) as [s|] eqn:Es; [|exact He].
      destruct (parse s) as [p|] eqn:Ep; [|exact He].
      pose proof (C_var _ _ _ _ _ _ Hc He Es Ep) as Hp.
      destruct (is_literal p); [apply Hev; assumption|]. destruct Hp as [Hpanic Hnext].
      destruct (Z.gtb_spec (d + 1) U32_MAX) as [Hbig|_]; [exact (Hpanic Hbig)|].
      destruct (Z.gtb_spec (d + 1) max_depth) as [_|Hle]; [exact He|].
      apply Hev; [exact (Hnext Hle)|exact He].
  Qed.

  Lemma apply_binary_sat f ev o l r d en : ev_sat f ev -> C f l d -> C f r d -> E en ->
    sat (apply_binary ev o l r d en).
  Proof.
    intros Hev Hl Hr He.
    assert (Hsc : forall (skip : Z -> bool) b, sat (bind (ev l d en) (fun lv en1 =>
              if skip lv then ROk (b2z b) en1
              else bind (ev r d en1) (fun rv en2 => ROk (b2z (negb (rv =? 0))) en2)))).
    { intros skip b. apply bind_sat; [apply Hev; assumption|]. intros lv en1 _ He1.
      destruct (skip lv); [split; [apply V_b2z|exact He1]|].
      apply bind_sat; [apply Hev; assumption|]. intros rv en2 _ He2. split; [apply V_b2z|exact He2]. }
    destruct (binop_logical_dec o) as [[-> | ->]|[H1 H2]].
    - exact (Hsc (fun lv => negb (lv =? 0)) true).
    - exact (Hsc (fun lv => lv =? 0) false).
    - rewrite apply_binary_arith by assumption.
      apply bind_sat; [apply Hev; assumption|]. intros lv en1 Hlv He1.
      apply bind_sat; [apply Hev; assumption|]. intros rv en2 Hrv He2.
      destruct (arith_answers o lv rv H1 H2) as [[v Ea]|[err Ea]]; rewrite Ea.
      + split; [exact (V_arith _ _ _ _ Hlv Hrv Ea)|exact He2].
      + exact He2.
  Qed.

  Lemma eval_ev_sat : forall f, ev_sat f (eval f).
  Proof.
    induction f as [|f IH]; intros e d en Hc He; [exact (C_fuel _ _ Hc)|].
    pose proof (fun e' => C_child _ _ _ e' Hc) as Hsub.
    destruct e; cbn [Eval.eval]; cbn [children In] in Hsub.
    - split; [exact (V_lit _ _ _ Hc)|exact He].
    - apply (deref_sat f); assumption.
    - apply bind_sat; [apply IH; [apply Hsub; auto|exact He]|]. intros v en1 Hv He1.
      split; [apply V_unary, Hv|exact He1].
    - apply (apply_binary_sat f); [exact IH|apply Hsub; auto|apply Hsub; auto|exact He].
    - apply bind_sat; [apply IH; [apply Hsub; auto|exact He]|]. intros cv en1 _ He1.
      destruct (negb (cv =? 0)); (apply IH; [apply Hsub; auto|exact He1]).
    - apply bind_sat; [apply IH; [apply Hsub; auto|exact He]|]. intros v en1 Hv He1.
      apply (assign_sat f); [exact IH|intros ie Hie; apply Hsub; right; exact Hie|exact Hv|exact He1].
    - unfold apply_incr.
      apply bind_sat; [apply (deref_sat f); [exact IH|exact (C_incr _ _ _ _ _ Hc)|exact He]|].
      intros v en1 Hv He1.
      assert (Hinc : V (wadd v 1)) by exact (V_arith Add v 1 _ Hv (V_b2z true) eq_refl).
      assert (Hdec : V (wsub v 1)) by exact (V_arith Sub v 1 _ Hv (V_b2z true) eq_refl).
      destruct o; cbn zeta;
        (apply bind_sat; [apply (assign_sat f); [exact IH|exact Hsub|assumption|exact He1]|]);
        intros _ en2 _ He2; split; assumption.
    - apply bind_sat.
      + apply (apply_binary_sat f); [exact IH|apply Hsub; auto|apply Hsub; auto|exact He].
      + intros v en1 Hv He1.
        apply (assign_sat f); [exact IH|intros ie Hie; apply Hsub; right; right; exact Hie|exact Hv|exact He1].
  Qed.

  Theorem eval_sat f e d en : C f e d -> E en -> sat (eval f e d en).
  Proof. apply eval_ev_sat. Qed.
End Invariant.

Section Proofs.
  Variable parse : str -> option aexpr.
  Variable nounset : bool.
  Variable max_depth : Z.
  Hypothesis max_depth_u32 : 0 <= max_depth < U32_MAX.

  Notation eval := (eval parse nounset max_depth).
  Notation deref := (deref parse nounset max_depth).

  (** Rust's panics: the zero divisor of [wrapping_div]/[wrapping_rem], [unreachable!()], the
      overflow of [depth + 1]. *)
  Theorem eval_no_panic : forall fuel e depth en, 0 <= depth <= max_depth ->
    eval fuel e depth en <> RPanic.
  Proof.
    intros fuel e depth en Hd Heq.
    assert (Hs : sat (fun _ => True) (fun _ => True) True False (eval fuel e depth en)).
    { apply eval_sat with (C := fun _ _ d => 0 <= d <= max_depth); auto.
      (* [C_var] *)
      intros _ x d _ s p Hd' _ _ _. destruct (is_literal p); [exact Hd'|]. unfold U32_MAX in *. lia. }
    rewrite Heq in Hs. exact Hs.
  Qed.

  (** short circuit: the skipped operand [b] is arbitrary (an assignment, a division by zero, a
      diverging recursion) *)
  Theorem and_short_circuit f a b depth en en1 :
    eval f a depth en = ROk 0 en1 -> eval (S f) (EBin LAnd a b) depth en = ROk 0 en1.
  Proof. intros H. cbn. rewrite H. reflexivity. Qed.

  Theorem or_short_circuit f a b depth en en1 v :
    eval f a depth en = ROk v en1 -> v <> 0 -> eval (S f) (EBin LOr a b) depth en = ROk 1 en1.
  Proof. intros H Hv. cbn. rewrite H. cbn. destruct (Z.eqb_spec v 0); [contradiction|reflexivity]. Qed.

  Theorem and_evaluates_right f a b depth en en1 v :
    eval f a depth en = ROk v en1 -> v <> 0 ->
    eval (S f) (EBin LAnd a b) depth en =
      match eval f b depth en1 with ROk rv en2 => ROk (b2z (negb (rv =? 0))) en2 | x => x end.
  Proof.
    intros H Hv. cbn. rewrite H. cbn. destruct (Z.eqb_spec v 0); [contradiction|].
    unfold bind. destruct (eval f b depth en1); reflexivity.
  Qed.

  Theorem cond_one_branch f c t e depth en en1 v :
    eval f c depth en = ROk v en1 ->
    eval (S f) (ECond c t e) depth en = if v =? 0 then eval f e depth en1 else eval f t depth en1.
  Proof. intros H. cbn. rewrite H. cbn. destruct (v =? 0); reflexivity. Qed.

  Theorem assign_stores f x rhs depth en v en' :
    eval (S f) (EAssign x None rhs) depth en = ROk v en' ->
    exists en1, eval f rhs depth en = ROk v en1 /\ en' = update x (show_Z v) en1 /\
                lookup x en' = Some (show_Z v).
  Proof.
    cbn. destruct (eval f rhs depth en) as [v1 en1| | |] eqn:E1; cbn; try congruence.
    intros H; injection H as <- <-. exists en1. rewrite lookup_update_same. auto.
  Qed.

  Theorem binassign_stores f o x rhs depth en v en' :
    o <> LAnd -> o <> LOr ->
    eval (S f) (EBinAssign o x None rhs) depth en = ROk v en' ->
    exists lv en1 rv en2,
      eval f (ERef x None) depth en = ROk lv en1 /\ eval f rhs depth en1 = ROk rv en2 /\
      arith o lv rv = AOk v /\ en' = update x (show_Z v) en2 /\ lookup x en' = Some (show_Z v).
  Proof.
    intros H1 H2. cbn [Eval.eval]. rewrite apply_binary_arith by assumption.
    destruct (eval f (ERef x None) depth en) as [lv en1| | |] eqn:E1; cbn; try congruence.
    destruct (eval f rhs depth en1) as [rv en2| | |] eqn:E2; cbn; try congruence.
    destruct (arith o lv rv) as [w| | |] eqn:Ea; cbn; try congruence.
    intros H; injection H as <- <-.
    exists lv, en1, rv, en2. rewrite lookup_update_same. repeat split; try reflexivity; assumption.
  Qed.

  Theorem incr_stores f o x depth en v en' :
    eval (S f) (EIncr o x None) depth en = ROk v en' ->
    exists old en1,
      deref (eval f) x None depth en = ROk old en1 /\
      let nv := match o with PreInc | PostInc => wadd old 1 | PreDec | PostDec => wsub old 1 end in
      en' = update x (show_Z nv) en1 /\ lookup x en' = Some (show_Z nv) /\
      v = match o with PreInc | PreDec => nv | PostInc | PostDec => old end.
  Proof.
    cbn [Eval.eval]. unfold apply_incr.
    destruct (deref (eval f) x None depth en) as [old en1| | |] eqn:E1; cbn; try congruence.
    destruct o; cbn; intros H; injection H as <- <-; exists old, en1; rewrite lookup_update_same;
      repeat split; reflexivity.
  Qed.

  Fixpoint lits_inr (e : aexpr) : Prop :=
    let o (i : option aexpr) := match i with Some ie => lits_inr ie | None => True end in
    match e with
    | ELit z => inr z
    | ERef _ i => o i
    | EUn _ a => lits_inr a
    | EBin _ a b => lits_inr a /\ lits_inr b
    | ECond c t e2 => lits_inr c /\ lits_inr t /\ lits_inr e2
    | EAssign _ i a => o i /\ lits_inr a
    | EIncr _ _ i => o i
    | EBinAssign _ _ i a => o i /\ lits_inr a
    end.

  Hypothesis parse_inr : forall s e, parse s = Some e -> lits_inr e.

  Lemma lits_inr_child e e' : lits_inr e -> In e' (children e) -> lits_inr e'.
  Proof.
    intros He. apply Forall_forall.
    destruct e as [z|x [ie|]|o a|o a b|c t e2|x [ie|] a|o x [ie|]|o x [ie|] a]; cbn in He;
      repeat constructor; apply He.
  Qed.

  (** the hypotheses on literals are what the parser guarantees (ParseProofs) *)
  Theorem eval_in_range : forall fuel e depth en v en', lits_inr e ->
    eval fuel e depth en = ROk v en' -> inr v.
  Proof.
    intros fuel e depth en v en' He Heq.
    assert (Hs : sat inr (fun _ => True) True True (eval fuel e depth en)).
    { apply eval_sat with (C := fun _ e _ => lits_inr e);
        eauto using apply_unary_in_range, arith_in_range, b2z_range.
      - (* [C_child] *) intros _ e0 _ e'. apply lits_inr_child.
      - (* [C_var] *) intros _ x d _ s p _ _ _ Ep. apply parse_inr in Ep. destruct (is_literal p); auto. }
    rewrite Heq in Hs. exact (proj1 Hs).
  Qed.
End Proofs.

(** The fuel that suffices.  The call tree of [eval_expr_impl] is at most [max_depth + 1] levels
    of variable contents deep (the depth counter of [deref_lvalue]): the top one as deep as
    [weight e], each below it at most [H + 1], where [H] bounds the weight of every expression a
    variable can hold. *)
Fixpoint weight (e : aexpr) : nat :=
  let wo (i : option aexpr) := match i with Some ie => weight ie | None => O end in
  match e with
  | ELit _ => O
  | ERef _ i => S (wo i)
  | EUn _ a => S (weight a)
  | EBin _ a b => S (Nat.max (weight a) (weight b))
  | ECond c t f => S (Nat.max (weight c) (Nat.max (weight t) (weight f)))
  | EAssign _ i a => S (Nat.max (wo i) (weight a))
  | EIncr _ _ i => S (wo i)
  | EBinAssign _ _ i a => S (S (Nat.max (wo i) (weight a)))
  end.

Lemma weight_child e e' : In e' (children e) -> (weight e' < weight e)%nat.
Proof.
  destruct e as [z|x [ie|]|o a|o a b|c t e2|x [ie|] a|o x [ie|]|o x [ie|] a]; cbn;
    intuition (subst; cbn; lia).
Qed.

Section Fuel.
  Variable parse : str -> option aexpr.
  Variable nounset : bool.
  Variable max_depth : Z.
  Hypothesis max_depth_nonneg : 0 <= max_depth.
  Variable H : nat.

  Notation eval := (eval parse nounset max_depth).

  Definition val_ok (s : str) : Prop :=
    match parse s with Some p => (weight p <= H)%nat | None => True end.
  Definition env_ok (en : env) : Prop := forall x s, lookup x en = Some s -> val_ok s.
  Hypothesis empty_ok : val_ok [].
  Hypothesis number_ok : forall z, val_ok (show_Z z).

  Lemma env_ok_update x z en : env_ok en -> env_ok (update x (show_Z z) en).
  Proof.
    intros Hen y s. destruct (str_eqb x y) eqn:E.
    - apply str_eqb_eq in E. subst y. rewrite lookup_update_same. intros Hs; injection Hs as <-. apply number_ok.
    - rewrite lookup_update_other; [apply Hen|]. intros ->. rewrite str_eqb_refl in E. discriminate.
  Qed.

  Lemma var_str_ok x en s : env_ok en -> var_str nounset x en = Some s -> val_ok s.
  Proof.
    intros Hen. unfold var_str. destruct (lookup x en) as [s'|] eqn:El.
    - intros Hs; injection Hs as <-. exact (Hen _ _ El).
    - destruct nounset; [discriminate|]. intros Hs; injection Hs as <-. exact empty_ok.
  Qed.

  (** levels of variable contents still available below depth [d]; a call at depth [d] on an
      expression of weight [w] needs fuel above [lvl d * S H + w] *)
  Definition lvl (d : Z) : nat := Z.to_nat (max_depth - d).
  Lemma lvl_step d : 0 <= d -> d + 1 <= max_depth -> lvl d = S (lvl (d + 1)).
  Proof. unfold lvl. intros. lia. Qed.

  Lemma eval_enough_fuel fuel e d en : 0 <= d <= max_depth -> (lvl d * S H + weight e < fuel)%nat ->
    env_ok en -> sat (fun _ => True) env_ok False True (eval fuel e d en).
  Proof.
    intros Hd0 Hf.
    apply eval_sat with
      (C := fun f e d => 0 <= d <= max_depth /\ (lvl d * S H + weight e < f)%nat);
      auto using env_ok_update.
    - (* [C_fuel] *) intros e0 d0 [_ Hm]. lia.
    - (* [C_child] *) intros f e0 d0 e' [Hd Hm] Hin. apply weight_child in Hin. split; [exact Hd|lia].
    - (* [C_var] *) intros f x d0 en0 s p [Hd Hm] Hen0 Es Ep. cbn [weight] in Hm.
      pose proof (var_str_ok _ _ _ Hen0 Es) as Hw. unfold val_ok in Hw. rewrite Ep in Hw.
      destruct (is_literal p) eqn:El.
      + destruct p; try discriminate. cbn [weight]. split; [exact Hd|lia].
      + split; [trivial|]. intros Hle. rewrite (lvl_step d0) in Hm by lia. split; lia.
  Qed.

  (** the recursion through variable contents is cut by the depth counter after [max_depth] levels *)
  Theorem deref_depth_bound fuel e en : env_ok en ->
    ((Z.to_nat max_depth) * S H + weight e < fuel)%nat ->
    eval fuel e 0 en <> RFuel.
  Proof.
    intros Hen Hf Heq.
    pose proof (eval_enough_fuel fuel e 0 en ltac:(lia)) as Hs.
    unfold lvl in Hs. rewrite Z.sub_0_r, Heq in Hs. exact (Hs Hf Hen).
  Qed.
End Fuel.

(** non-vacuity: a self-referential variable runs [max_depth] levels deep and then reports the error *)
Example fuel_hyps_nonvacuous :
  let parse := fun s : str => match s with [] => Some (ELit 0) | _ => Some (ERef [120%N] None) end in
  val_ok parse 1 [] /\ (forall z, val_ok parse 1 (show_Z z)) /\
  env_ok parse 1 [([120%N], [120%N])] /\
  eval parse false 1024 (1024 * 2 + 1 + 1) (ERef [120%N] None) 0 [([120%N], [120%N])]
    = RErr ERecLimit [([120%N], [120%N])].
Proof.
  cbn zeta. split; [cbn; lia|]. split.
  - intros z. unfold val_ok. destruct (show_Z z); cbn; lia.
  - split.
    + intros x s. cbn. destruct (str_eqb x [120%N]); [|congruence]. intros Hs; injection Hs as <-. cbn. lia.
    + vm_compute. reflexivity.
Qed.
