(** Two's-complement 64-bit machine integers as [Z] with the wrap written out, and the
    primitive operations of Rust's [i64] used by brush-core/src/arithmetic.rs.
    Operations that panic in Rust on some operands return [option]. *)
From BV Require Import Base.Prelude.

Definition M63 : Z := 9223372036854775808.
Definition M64 : Z := 18446744073709551616.
Definition M32 : Z := 4294967296.

Lemma M63_pow : M63 = 2 ^ 63. Proof. reflexivity. Qed.
Lemma M64_pow : M64 = 2 ^ 64. Proof. reflexivity. Qed.
Lemma M32_pow : M32 = 2 ^ 32. Proof. reflexivity. Qed.

Definition wrap64 (z : Z) : Z := (z + M63) mod M64 - M63.
Definition inr (z : Z) : Prop := - M63 <= z < M63.

Lemma inr_in_i64 z : inr z <-> in_i64 z = true.
Proof.
  unfold inr, in_i64, i64_min, i64_max. rewrite <- M63_pow. unfold M63.
  rewrite andb_true_iff, !Z.leb_le. lia.
Qed.

Lemma wrap64_range z : inr (wrap64 z).
Proof.
  unfold inr, wrap64. pose proof (Z.mod_pos_bound (z + M63) M64 eq_refl) as H.
  unfold M63, M64 in *. lia.
Qed.

Lemma wrap64_id z : inr z -> wrap64 z = z.
Proof.
  unfold inr, wrap64. intros H. rewrite Z.mod_small; unfold M63, M64 in *; lia.
Qed.

Lemma wrap64_mod z : wrap64 z mod M64 = z mod M64.
Proof.
  unfold wrap64. rewrite Zminus_mod_idemp_l. f_equal. ring.
Qed.

Lemma wrap64_eqm a b : a mod M64 = b mod M64 -> wrap64 a = wrap64 b.
Proof.
  intros H. unfold wrap64. f_equal.
  rewrite <- (Zplus_mod_idemp_l a), <- (Zplus_mod_idemp_l b), H. reflexivity.
Qed.

Lemma wrap64_unique z r : inr r -> r mod M64 = z mod M64 -> wrap64 z = r.
Proof.
  intros Hr Hm. rewrite <- (wrap64_id r Hr). apply wrap64_eqm. symmetry; exact Hm.
Qed.

Lemma wrap64_idem z : wrap64 (wrap64 z) = wrap64 z.
Proof. apply wrap64_id, wrap64_range. Qed.

Lemma wrap64_add_l a b : wrap64 (wrap64 a + b) = wrap64 (a + b).
Proof. apply wrap64_eqm. rewrite <- Zplus_mod_idemp_l, wrap64_mod, Zplus_mod_idemp_l. reflexivity. Qed.
Lemma wrap64_add_r a b : wrap64 (a + wrap64 b) = wrap64 (a + b).
Proof. rewrite Z.add_comm, wrap64_add_l, Z.add_comm. reflexivity. Qed.
Lemma wrap64_mul_l a b : wrap64 (wrap64 a * b) = wrap64 (a * b).
Proof. apply wrap64_eqm. rewrite <- Zmult_mod_idemp_l, wrap64_mod, Zmult_mod_idemp_l. reflexivity. Qed.
Lemma wrap64_mul_r a b : wrap64 (a * wrap64 b) = wrap64 (a * b).
Proof. rewrite Z.mul_comm, wrap64_mul_l, Z.mul_comm. reflexivity. Qed.
Lemma wrap64_pow a k : wrap64 (wrap64 a ^ k) = wrap64 (a ^ k).
Proof.
  destruct (Z.lt_ge_cases k 0) as [Hk|Hk]; [rewrite !Z.pow_neg_r by exact Hk; reflexivity|].
  pattern k. apply natlike_ind; [reflexivity| |exact Hk].
  intros x Hx IHx. rewrite !Z.pow_succ_r by exact Hx.
  rewrite wrap64_mul_l, <- wrap64_mul_r, IHx, wrap64_mul_r. reflexivity.
Qed.

Definition wadd (a b : Z) : Z := wrap64 (a + b).          (* wrapping_add *)
Definition wsub (a b : Z) : Z := wrap64 (a - b).          (* wrapping_sub *)
Definition wmul (a b : Z) : Z := wrap64 (a * b).          (* wrapping_mul *)
Definition wneg (a : Z) : Z := wrap64 (- a).              (* wrapping_neg *)
Definition bnot (a : Z) : Z := - a - 1.                   (* ! on i64 *)
(** [wrapping_div]/[wrapping_rem] panic on a zero divisor: [None] *)
Definition wdiv (a b : Z) : option Z := if b =? 0 then None else Some (wrap64 (Z.quot a b)).
Definition wrem (a b : Z) : option Z := if b =? 0 then None else Some (wrap64 (Z.rem a b)).
(** [right as u32], then [wrapping_shl]/[wrapping_shr] mask the amount with 63 *)
Definition as_u32 (z : Z) : Z := z mod M32.
Definition as_u64 (z : Z) : Z := z mod M64.
Definition wshl (a : Z) (amt_u32 : Z) : Z := wrap64 (a * 2 ^ (amt_u32 mod 64)).
Definition wshr (a : Z) (amt_u32 : Z) : Z := a / 2 ^ (amt_u32 mod 64).

(** The loop of [wrapping_pow_u64]; the exponent is a [u64], so 64 iterations suffice.
    [None]: the loop did not finish within the fuel (never happens with fuel 64, see
    [wpow_correct]). *)
Fixpoint wpow_loop (fuel : nat) (base exponent result : Z) : option Z :=
  if exponent >? 0 then
    match fuel with
    | O => None
    | S f =>
      let result' := if exponent mod 2 =? 1 then wmul result base else result in
      wpow_loop f (wmul base base) (exponent / 2) result'
    end
  else Some result.
Definition wpow (base exponent : Z) : option Z := wpow_loop 64 base exponent 1.

Theorem wadd_mod a b : wadd a b mod M64 = (a + b) mod M64.
Proof. apply wrap64_mod. Qed.
Theorem wsub_mod a b : wsub a b mod M64 = (a - b) mod M64.
Proof. apply wrap64_mod. Qed.
Theorem wmul_mod a b : wmul a b mod M64 = (a * b) mod M64.
Proof. apply wrap64_mod. Qed.
Theorem wneg_mod a : wneg a mod M64 = (- a) mod M64.
Proof. apply wrap64_mod. Qed.

Lemma wadd_range a b : inr (wadd a b). Proof. apply wrap64_range. Qed.
Lemma wsub_range a b : inr (wsub a b). Proof. apply wrap64_range. Qed.
Lemma wmul_range a b : inr (wmul a b). Proof. apply wrap64_range. Qed.
Lemma wneg_range a : inr (wneg a). Proof. apply wrap64_range. Qed.
Lemma bnot_range a : inr a -> inr (bnot a).
Proof. unfold inr, bnot, M63. lia. Qed.
Lemma bnot_lnot a : bnot a = Z.lnot a.
Proof. unfold bnot, Z.lnot. lia. Qed.

Lemma wadd_exact a b : inr (a + b) -> wadd a b = a + b.
Proof. apply wrap64_id. Qed.
Lemma wsub_exact a b : inr (a - b) -> wsub a b = a - b.
Proof. apply wrap64_id. Qed.
Lemma wmul_exact a b : inr (a * b) -> wmul a b = a * b.
Proof. apply wrap64_id. Qed.

Lemma wpow_loop_0 fuel base result : wpow_loop fuel base 0 result = Some result.
Proof. destruct fuel; reflexivity. Qed.

(** square and multiply: [base ^ e = (base * base) ^ (e / 2) * base ^ (e mod 2)], and [wrap64]
    commutes with products and powers *)
Lemma wpow_loop_correct fuel : forall base e result,
  0 <= e < 2 ^ Z.of_nat fuel -> inr result ->
  wpow_loop fuel base e result = Some (wrap64 (result * base ^ e)).
Proof.
  induction fuel as [|f IH]; intros base e result He Hr;
    (destruct (Z.eq_dec e 0) as [->|Hne];
     [rewrite wpow_loop_0, Z.pow_0_r, Z.mul_1_r, wrap64_id by exact Hr; reflexivity|]).
  - cbn in He. lia.
  - cbn [wpow_loop]. destruct (Z.gtb_spec e 0) as [_|Hz]; [|lia].
    rewrite Nat2Z.inj_succ, Z.pow_succ_r in He by lia.
    assert (Hdm := Z.div_mod e 2 ltac:(lia)).
    assert (Hmb := Z.mod_pos_bound e 2 ltac:(lia)).
    assert (Hpow : base ^ e = (base * base) ^ (e / 2) * base ^ (e mod 2)).
    { rewrite Hdm at 1. rewrite Z.pow_add_r, Z.pow_mul_r, Z.pow_2_r by lia. reflexivity. }
    rewrite IH; [|lia|destruct (e mod 2 =? 1); [apply wmul_range|exact Hr]].
    f_equal. unfold wmul. rewrite <- wrap64_mul_r, wrap64_pow, wrap64_mul_r.
    destruct (Z.eqb_spec (e mod 2) 1) as [H1|H1].
    + rewrite wrap64_mul_l, Hpow, H1, Z.pow_1_r. f_equal. ring.
    + replace (e mod 2) with 0 in Hpow by lia. rewrite Hpow, Z.pow_0_r, Z.mul_1_r. reflexivity.
Qed.

Theorem wpow_correct base e : 0 <= e < M64 -> wpow base e = Some (wrap64 (base ^ e)).
Proof.
  intros He. unfold wpow. rewrite wpow_loop_correct.
  - rewrite Z.mul_1_l. reflexivity.
  - rewrite M64_pow in He. exact He.
  - unfold inr, M63. lia.
Qed.

Lemma as_u32_mod64 r : as_u32 r mod 64 = r mod 64.
Proof.
  unfold as_u32. symmetry. apply Znumtheory.Zmod_div_mod; [lia|unfold M32; lia|].
  exists 67108864. reflexivity.
Qed.
Theorem wshl_spec a r : wshl a (as_u32 r) = wrap64 (a * 2 ^ (r mod 64)).
Proof. unfold wshl. rewrite as_u32_mod64. reflexivity. Qed.
Theorem wshr_spec a r : wshr a (as_u32 r) = a / 2 ^ (r mod 64).
Proof. unfold wshr. rewrite as_u32_mod64. reflexivity. Qed.
Lemma wshr_range a k : inr a -> inr (wshr a k).
Proof.
  unfold wshr, inr. intros H.
  assert (Hp : 0 < 2 ^ (k mod 64)) by (apply Z.pow_pos_nonneg; [lia|apply Z.mod_pos_bound; lia]).
  split.
  - apply Z.div_le_lower_bound; [exact Hp|]. unfold M63 in *. nia.
  - apply Z.div_lt_upper_bound; [exact Hp|]. unfold M63 in *. nia.
Qed.
Lemma wshr_shiftr a k : wshr a k = Z.shiftr a (k mod 64).
Proof. unfold wshr. rewrite Z.shiftr_div_pow2; [reflexivity|apply Z.mod_pos_bound; lia]. Qed.

Theorem wdiv_none a b : wdiv a b = None <-> b = 0.
Proof. unfold wdiv. destruct (Z.eqb_spec b 0); split; congruence. Qed.
Theorem wrem_none a b : wrem a b = None <-> b = 0.
Proof. unfold wrem. destruct (Z.eqb_spec b 0); split; congruence. Qed.

Lemma wdiv_some a b : b <> 0 -> wdiv a b = Some (wrap64 (Z.quot a b)).
Proof. intros Hb. unfold wdiv. destruct (Z.eqb_spec b 0); [contradiction|reflexivity]. Qed.
Lemma wrem_some a b : b <> 0 -> wrem a b = Some (wrap64 (Z.rem a b)).
Proof. intros Hb. unfold wrem. destruct (Z.eqb_spec b 0); [contradiction|reflexivity]. Qed.

Lemma quot_range a b : inr a -> b <> 0 -> - M63 <= Z.quot a b <= M63.
Proof.
  intros Ha Hb. unfold inr in Ha.
  assert (Habs : Z.abs (Z.quot a b) <= Z.abs a).
  { rewrite <- Z.quot_abs by exact Hb.
    apply Z.quot_le_upper_bound; [lia|]. assert (1 <= Z.abs b) by lia. nia. }
  lia.
Qed.
Lemma rem_range a b : inr b -> b <> 0 -> inr (Z.rem a b).
Proof. intros Hb Hb0. pose proof (Z.rem_bound_abs a b Hb0). unfold inr in *. lia. Qed.

Theorem div_rem_c a b q r : inr a -> inr b -> wdiv a b = Some q -> wrem a b = Some r ->
  b <> 0 /\ inr q /\ inr r /\
  (~ (a = - M63 /\ b = -1) -> a = q * b + r) /\
  Z.abs r < Z.abs b /\ (r = 0 \/ Z.sgn r = Z.sgn a) /\
  (a = - M63 -> b = -1 -> q = - M63 /\ r = 0).
Proof.
  intros Ha Hb Hq Hr.
  assert (Hb0 : b <> 0) by (rewrite <- (wdiv_none a), Hq; discriminate).
  rewrite wdiv_some in Hq by exact Hb0. rewrite wrem_some in Hr by exact Hb0.
  injection Hq as <-. injection Hr as <-.
  pose proof (Z.quot_rem' a b) as Hqr.
  pose proof (Z.rem_bound_abs a b Hb0) as Hrb.
  pose proof (rem_range a b Hb Hb0) as Hrr.
  rewrite (wrap64_id (Z.rem a b)) by exact Hrr.
  split; [exact Hb0|]. split; [apply wrap64_range|]. split; [exact Hrr|].
  split; [|split; [exact Hrb|split]].
  - intros Hnm. rewrite wrap64_id; [lia|].
    pose proof (quot_range a b Ha Hb0) as Hq.
    destruct (Z.eq_dec (Z.quot a b) M63) as [He|Hne]; [|unfold inr; lia].
    exfalso. apply Hnm. unfold inr, M63 in *. nia.
  - destruct (Z.eq_dec (Z.rem a b) 0) as [|Hnz]; [left; assumption|right].
    apply Z.rem_sign_nz; assumption.
  - intros -> ->. split; reflexivity.
Qed.

Lemma inr_shiftr z : inr z <-> (Z.shiftr z 63 = 0 \/ Z.shiftr z 63 = -1).
Proof.
  rewrite Z.shiftr_div_pow2 by lia. rewrite <- M63_pow. unfold inr.
  pose proof (Z.div_mod z M63 ltac:(unfold M63; lia)) as Hdm.
  pose proof (Z.mod_pos_bound z M63 eq_refl) as Hb.
  unfold M63 in *. split; [intros H | intros [H|H]]; lia.
Qed.
Lemma land_range a b : inr a -> inr b -> inr (Z.land a b).
Proof.
  rewrite !inr_shiftr, Z.shiftr_land. intros [-> | ->] [-> | ->]; cbn; auto.
Qed.
Lemma lor_range a b : inr a -> inr b -> inr (Z.lor a b).
Proof.
  rewrite !inr_shiftr, Z.shiftr_lor. intros [-> | ->] [-> | ->]; cbn; auto.
Qed.
Lemma lxor_range a b : inr a -> inr b -> inr (Z.lxor a b).
Proof.
  rewrite !inr_shiftr, Z.shiftr_lxor. intros [-> | ->] [-> | ->]; cbn; auto.
Qed.

Global Arguments wrap64 : simpl never.
Global Arguments wadd : simpl never.
Global Arguments wsub : simpl never.
Global Arguments wmul : simpl never.
Global Arguments wneg : simpl never.
Global Arguments wdiv : simpl never.
Global Arguments wrem : simpl never.
Global Arguments wshl : simpl never.
Global Arguments wshr : simpl never.
Global Arguments wpow : simpl never.
Global Arguments wpow_loop : simpl never.
Global Arguments as_u32 : simpl never.
Global Arguments as_u64 : simpl never.
Global Arguments bnot : simpl never.
