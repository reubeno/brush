(** Facts about the parser model that are re-checked against the regenerated table:
    - [table_matches_c]: the levels of the [precedence!] block, their order, the kind and
      associativity of every rule and its operator text are those of bash's expr.c / C;
    - [table_well_typed]: a checker finds no rule that applies a constructor to captures of the
      wrong kind (the case in which [finish] answers [PBad]);
    - [parse_lits_in_range]: every literal in a parsed tree is an i64 (so [eval_in_range] applies
      to everything the parser produces). *)
From Coq Require Import String.
From BV Require Import Base.Prelude Arith.Wrap64 Arith.Ast Arith.Lit Arith.PegPrec
  Arith.Parse Arith.Eval Arith.EvalProofs gen.C07ArithTable.

(** ** the operator table of bash's expr.c, lowest precedence first
    (expcomma, expassign, expcond, explor, expland, expbor, expbxor, expband, exp5, exp4, expshift,
     exp3, expmuldiv, exppower, exp1 (unary), exp0 (pre/post increment, operands)).
    brush splits the unary level in two and the increment level in two; since prefix rules and
    atoms are tried regardless of the minimum precedence this refinement parses the same language
    on well-formed input (for rendered trees this is the round-trip theorem of TokProofs.v). *)
Inductive rshape :=
  | SInfixL (tok : string) (c : ctor)
  | SInfixR (tok : string) (c : ctor)
  | STernary                               (* x ? expression : (same level)   right associative *)
  | SAssign (tok : string) (c : ctor)      (* lvalue tok (same level): right associative *)
  | SUnary (tok : string) (c : ctor)       (* tok (same level) *)
  | SPreIncr (tok : string) (c : ctor)     (* tok lvalue *)
  | SPostIncr (tok : string) (c : ctor)    (* lvalue tok *)
  | SNumber | SVariable | SParens
  | SOther.

Definition c_levels : list (list rshape) := [
  [SInfixL "," (CBin Comma)];
  [SAssign "*=" (CBinAssign Mul); SAssign "/=" (CBinAssign Div); SAssign "%=" (CBinAssign Mod);
   SAssign "+=" (CBinAssign Add); SAssign "-=" (CBinAssign Sub); SAssign "<<=" (CBinAssign Shl);
   SAssign ">>=" (CBinAssign Shr); SAssign "&=" (CBinAssign BAnd); SAssign "|=" (CBinAssign BOr);
   SAssign "^=" (CBinAssign BXor); SAssign "=" CAssign];
  [STernary];
  [SInfixL "||" (CBin LOr)];
  [SInfixL "&&" (CBin LAnd)];
  [SInfixL "|" (CBin BOr)];
  [SInfixL "^" (CBin BXor)];
  [SInfixL "&" (CBin BAnd)];
  [SInfixL "==" (CBin Eq); SInfixL "!=" (CBin Ne)];
  [SInfixL "<" (CBin Lt); SInfixL ">" (CBin Gt); SInfixL "<=" (CBin Le); SInfixL ">=" (CBin Ge)];
  [SInfixL "<<" (CBin Shl); SInfixL ">>" (CBin Shr)];
  [SInfixL "+" (CBin Add); SInfixL "-" (CBin Sub)];
  [SInfixL "*" (CBin Mul); SInfixL "%" (CBin Mod); SInfixL "/" (CBin Div)];
  [SInfixR "**" (CBin Pow)];
  [SUnary "!" (CUn LNot); SUnary "~" (CUn BNot)];
  [SUnary "+" (CUn UPlus); SUnary "-" (CUn UMinus)];
  [SPreIncr "++" (CIncr PreInc); SPreIncr "--" (CIncr PreDec)];
  [SPostIncr "++" (CIncr PostInc); SPostIncr "--" (CIncr PostDec)];
  [SNumber; SVariable; SParens]
].

Definition str_to_string (s : str) : string := string_of_list_ascii (map Ascii.ascii_of_N s).

(** the shape of a rule of the table; a look-ahead guard after a unary sign (the [!['+']] that
    keeps [+] from swallowing the first half of [++]) does not change the shape *)
Definition shape_of (r : rule) : rshape :=
  match rk r, rels r, rargs r with
  | KInfix true false, [EWs; ETok t; EWs], [0; 1]%nat => SInfixL (str_to_string t) (rctor r)
  | KInfix false true, [EWs; ETok t; EWs], [0; 1]%nat => SInfixR (str_to_string t) (rctor r)
  | KInfix false true, [EWs; ETok [63%N]; EWs; EExpr; EWs; ETok [58%N]; EWs], [0; 1; 2]%nat =>
      match rctor r with CCond => STernary | _ => SOther end
  | KPrefix true, [ELval; EWs; ETok t; EWs], [0; 1]%nat => SAssign (str_to_string t) (rctor r)
  | KPrefix true, [ETok t; EWs], [0]%nat => SUnary (str_to_string t) (rctor r)
  | KPrefix true, [ETok t; ENot [(c1, c2)]; EWs], [0]%nat =>
      match t with
      | [c] => if (N.eqb c c1 && N.eqb c c2)%bool then SUnary (str_to_string t) (rctor r) else SOther
      | _ => SOther
      end
  | KAtom, [ETok t; EWs; ELval], [0]%nat => SPreIncr (str_to_string t) (rctor r)
  | KAtom, [ELval; EWs; ETok t], [0]%nat => SPostIncr (str_to_string t) (rctor r)
  | KAtom, [ENum], [0]%nat => match rctor r with CLit => SNumber | _ => SOther end
  | KAtom, [ELval], [0]%nat => match rctor r with CRef => SVariable | _ => SOther end
  | KAtom, [ETok [40%N]; EWs; EExpr; EWs; ETok [41%N]], [0]%nat =>
      match rctor r with CId => SParens | _ => SOther end
  | _, _, _ => SOther
  end.

Definition levels_of (t : table) : list (list rshape) := map (map shape_of) t.

Definition ctor_eqb (a b : ctor) : bool :=
  match a, b with
  | CBin x, CBin y | CBinAssign x, CBinAssign y => binop_eqb x y
  | CAssign, CAssign | CCond, CCond | CLit, CLit | CRef, CRef | CId, CId => true
  | CUn x, CUn y => match x, y with LNot, LNot | BNot, BNot | UPlus, UPlus | UMinus, UMinus => true | _, _ => false end
  | CIncr x, CIncr y => match x, y with PreInc, PreInc | PreDec, PreDec | PostInc, PostInc | PostDec, PostDec => true | _, _ => false end
  | _, _ => false
  end.
Definition rshape_eqb (a b : rshape) : bool :=
  match a, b with
  | SInfixL s c, SInfixL s' c' | SInfixR s c, SInfixR s' c' | SAssign s c, SAssign s' c'
  | SUnary s c, SUnary s' c' | SPreIncr s c, SPreIncr s' c' | SPostIncr s c, SPostIncr s' c' =>
      String.eqb s s' && ctor_eqb c c'
  | STernary, STernary | SNumber, SNumber | SVariable, SVariable | SParens, SParens => true
  | _, _ => false
  end.
(** a level matches when it has the same rules up to their order (within a level PEG order only
    matters between an operator and a longer one it is a prefix of, which the right-operand
    failure resolves: for rendered inputs, the round-trip theorem of TokProofs.v); [SOther] never
    matches *)
Definition level_eqb (a b : list rshape) : bool :=
  Nat.eqb (length a) (length b)
  && forallb (fun x => existsb (rshape_eqb x) b) a
  && forallb (fun x => existsb (rshape_eqb x) a) b.
Fixpoint levels_eqb (a b : list (list rshape)) : bool :=
  match a, b with
  | [], [] => true
  | x :: a', y :: b' => level_eqb x y && levels_eqb a' b'
  | _, _ => false
  end.

Theorem table_matches_c : levels_eqb (levels_of arith_table) c_levels = true.
Proof. vm_compute. reflexivity. Qed.

Inductive ckind := KE | KT | KZ.
Definition elem_kind (e : elem) : list ckind :=
  match e with EExpr => [KE] | ELval => [KT] | ENum => [KZ] | _ => [] end.
Definition rule_caps (r : rule) : list ckind :=
  let mid := flat_map elem_kind (rels r) in
  match rk r with
  | KInfix _ _ => KE :: mid ++ [KE]
  | KPrefix _ => mid ++ [KE]
  | KPostfix => KE :: mid
  | KAtom => mid
  end.
Definition ctor_sig (c : ctor) : list ckind :=
  match c with
  | CBin _ => [KE; KE] | CBinAssign _ => [KT; KE] | CAssign => [KT; KE] | CCond => [KE; KE; KE]
  | CUn _ => [KE] | CIncr _ => [KT] | CLit => [KZ] | CRef => [KT] | CId => [KE]
  end.
Definition ckind_eqb (a b : ckind) : bool :=
  match a, b with KE, KE | KT, KT | KZ, KZ => true | _, _ => false end.
Fixpoint kinds_eqb (a b : list ckind) : bool :=
  match a, b with
  | [], [] => true
  | x :: a', y :: b' => ckind_eqb x y && kinds_eqb a' b'
  | _, _ => false
  end.
Definition rule_typed (r : rule) : bool :=
  let caps := rule_caps r in
  match (fix sel (idx : list nat) : option (list ckind) :=
           match idx with
           | [] => Some []
           | k :: idx' => match nth_error caps k, sel idx' with
                          | Some c, Some l => Some (c :: l)
                          | _, _ => None
                          end
           end) (rargs r) with
  | Some ks => kinds_eqb ks (ctor_sig (rctor r))
  | None => false
  end.
Theorem table_well_typed : forallb (forallb rule_typed) arith_table = true.
Proof. vm_compute. reflexivity. Qed.

(** every infix rule has proper associativity markers (rust-peg would reject the grammar otherwise) *)
Definition rule_markers_ok (r : rule) : bool :=
  match rk r with KInfix la ra => xorb la ra | _ => true end.
Theorem table_markers_ok : forallb (forallb rule_markers_ok) arith_table = true.
Proof. vm_compute. reflexivity. Qed.

Lemma to_digit_nonneg radix c d : to_digit radix c = Some d -> 0 <= d.
Proof.
  assert (Hlo : forall lo hi, ((lo <=? c) && (c <=? hi))%N = true -> (lo <= c)%N).
  { intros lo hi Hc. apply andb_true_iff in Hc. apply N.leb_le, Hc. }
  unfold to_digit.
  destruct ((48 <=? c)%N && (c <=? 57)%N) eqn:E1; [apply Hlo in E1|
  destruct ((97 <=? c)%N && (c <=? 122)%N) eqn:E2; [apply Hlo in E2|
  destruct ((65 <=? c)%N && (c <=? 90)%N) eqn:E3; [apply Hlo in E3|congruence]]];
    (destruct (_ <? radix); [|congruence]; intros H; injection H as <-; lia).
Qed.
Lemma radix_val_nonneg radix s : 0 <= radix -> forall acc v, 0 <= acc -> radix_val radix acc s = Some v -> 0 <= v.
Proof.
  intros Hr. induction s as [|c s IH]; intros acc v Hacc; cbn [radix_val].
  - intros H; injection H as <-. assumption.
  - destruct (to_digit radix c) as [d|] eqn:Ed; [|congruence].
    apply to_digit_nonneg in Ed. apply IH. nia.
Qed.
Lemma i64_from_str_radix_range radix s v : 0 <= radix -> i64_from_str_radix radix s = Some v -> inr v.
Proof.
  intros Hr. unfold i64_from_str_radix. destruct s as [|c s]; [congruence|].
  destruct (radix_val radix 0 (c :: s)) as [w|] eqn:E; [|congruence].
  apply radix_val_nonneg in E; [|assumption|lia].
  destruct (Z.ltb_spec w M63) as [Hlt|Hge]; [|congruence]. intros Hq; injection Hq as <-. unfold inr, M63 in *. lia.
Qed.
Lemma u64_parse_cast_range s v : u64_parse_cast s = Some v -> inr v.
Proof.
  unfold u64_parse_cast. destruct s; [congruence|]. destruct (radix_val 10 0 _); [|congruence].
  destruct (_ <? M64); [|congruence]. intros H; injection H as <-. apply wrap64_range.
Qed.

Lemma some_with_rest {A B} (o : option A) (rest : B) a r :
  match o with Some v => Some (v, rest) | None => None end = Some (a, r) -> o = Some a.
Proof. destruct o; congruence. Qed.

Section LitRange.
  Variable cfg : lexcfg.
  Hypothesis hex_radix_nonneg : 0 <= hex_radix cfg.
  Hypothesis oct_radix_nonneg : 0 <= oct_radix cfg.

  Lemma shell_digits_range radix s : forall acc v, inr acc -> shell_digits cfg radix acc s = Some v -> inr v.
  Proof.
    induction s as [|c s IH]; intros acc v Hacc; cbn [shell_digits].
    - intros H; injection H as <-. assumption.
    - destruct (dmap_val _ c) as [d|]; [|congruence].
      destruct (d >=? radix); [congruence|]. apply IH. apply wadd_range.
  Qed.
  Lemma pslm_range s radix v : parse_shell_literal_number cfg s radix = Some v -> inr v.
  Proof.
    unfold parse_shell_literal_number. destruct (_ && _)%bool; [|congruence].
    apply shell_digits_range. unfold inr, M63; lia.
  Qed.
  (** [0x…] and [0…]: either the wrapping reader or the range-checked one *)
  Lemma prefixed_range (wrap : bool) radix s v : 0 <= radix ->
    (if wrap then parse_shell_literal_number cfg s radix else i64_from_str_radix radix s) = Some v -> inr v.
  Proof. intros Hr. destruct wrap; [apply pslm_range|apply i64_from_str_radix_range, Hr]. Qed.

  Lemma decimal_literal_range s v r : decimal_literal cfg s = Some (v, r) -> inr v.
  Proof.
    unfold decimal_literal. destruct s as [|c s]; [congruence|].
    destruct (in_class (dec_first cfg) c); [|congruence].
    destruct (take_while (dec_rest cfg) s) as [ds rest].
    intros H. apply some_with_rest in H. revert H.
    destruct (dec_wrap cfg); [apply pslm_range|apply u64_parse_cast_range].
  Qed.
  Lemma lit_radix_range s v r : lit_radix cfg s = Some (v, r) -> inr v.
  Proof.
    unfold lit_radix. destruct (decimal_literal cfg s) as [[radix [|c s1]]|]; try congruence.
    destruct (N.eqb c (radix_sep cfg)); [|congruence].
    destruct (take_while (radix_digits cfg) s1) as [[|d ds] rest]; [congruence|].
    intros H. apply some_with_rest in H. exact (pslm_range _ _ _ H).
  Qed.
  Lemma lit_hex_range s v r : lit_hex cfg s = Some (v, r) -> inr v.
  Proof.
    unfold lit_hex. destruct s as [|c0 [|c1 s2]]; try congruence.
    destruct (_ && _)%bool; [|congruence].
    destruct (take_while (hex_digits cfg) s2) as [ds rest].
    intros H. apply some_with_rest in H. exact (prefixed_range _ _ _ _ hex_radix_nonneg H).
  Qed.
  Lemma lit_oct_range s v r : lit_oct cfg s = Some (v, r) -> inr v.
  Proof.
    unfold lit_oct. destruct s as [|c0 s1]; [congruence|].
    destruct (N.eqb c0 (oct_lead cfg)); [|congruence].
    destruct (take_while (oct_digits cfg) s1) as [ds rest].
    intros H. apply some_with_rest in H. exact (prefixed_range _ _ _ _ oct_radix_nonneg H).
  Qed.
  Theorem literal_number_range s v r : literal_number cfg s = Some (v, r) -> inr v.
  Proof.
    unfold literal_number.
    destruct (lit_radix cfg s) as [[v1 r1]|] eqn:E1;
      [intros H; injection H as <- _; exact (lit_radix_range _ _ _ E1)|].
    destruct (lit_hex cfg s) as [[v2 r2]|] eqn:E2;
      [intros H; injection H as <- _; exact (lit_hex_range _ _ _ E2)|].
    destruct (lit_oct cfg s) as [[v3 r3]|] eqn:E3;
      [intros H; injection H as <- _; exact (lit_oct_range _ _ _ E3)|].
    apply decimal_literal_range.
  Qed.
End LitRange.

Section ParseRange.
  Variable I : Type.
  Variable lx : lexer I.
  Variable tbl : table.
  Hypothesis lit_ok : forall s v r, lx_number lx s = Some (v, r) -> inr v.
  Hypothesis lvalue_ok : forall (expr : I -> pres aexpr I) s x i r,
    (forall s e r, expr s = PMatch e r -> lits_inr e) ->
    lx_lvalue lx expr s = PMatch (x, i) r -> match i with Some ie => lits_inr ie | None => True end.

  Definition cap_ok (c : cap) : Prop :=
    match c with
    | VE e => lits_inr e
    | VT _ i => match i with Some ie => lits_inr ie | None => True end
    | VZ z => inr z
    end.
  Definition rec_ok (rec : nat -> I -> pres aexpr I) : Prop :=
    forall minp s e r, rec minp s = PMatch e r -> lits_inr e.

  Lemma build_ok c args e : Forall cap_ok args -> build c args = Some e -> lits_inr e.
  Proof.
    intros Hall Hb. destruct c as [o|o| | |o|o| | |].
    (* [CBin], [CBinAssign], [CAssign] take two captures, [CCond] three, the other five one;
       in each group exactly one shape of [args] survives *)
    1-3: destruct args as [|[a|x i|z] [|[b|y j|w] [|? ?]]]; try discriminate Hb.
    4: destruct args as [|[a|x i|z] [|[b|y j|w] [|[d|? ?|?] [|? ?]]]]; try discriminate Hb.
    5-9: destruct args as [|[a|x i|z] [|? ?]]; try discriminate Hb.
    all: injection Hb as <-; rewrite ?Forall_cons_iff in Hall; cbn in *; tauto.
  Qed.
  Lemma select_ok caps idx l : Forall cap_ok caps -> select caps idx = Some l -> Forall cap_ok l.
  Proof.
    intros Hall. revert l. induction idx as [|k idx IH]; intros l; cbn.
    - intros H; injection H as <-. constructor.
    - destruct (nth_error caps k) as [c|] eqn:En; [|congruence].
      destruct (select caps idx) as [l'|]; [|congruence].
      intros H; injection H as <-. constructor; [|apply IH; reflexivity].
      eapply Forall_forall; [exact Hall|]. eapply nth_error_In; eassumption.
  Qed.
  Lemma finish_ok r caps rest e rest' : Forall cap_ok caps -> finish I r caps rest = PMatch e rest' -> lits_inr e.
  Proof.
    intros Hall. unfold finish.
    destruct (select (rev caps) (rargs r)) as [args|] eqn:Es; [|congruence].
    destruct (build (rctor r) args) as [e'|] eqn:Eb; [|congruence].
    intros H; injection H as <- _.
    eapply build_ok; [|eassumption]. eapply select_ok; [|eassumption].
    apply Forall_rev. assumption.
  Qed.

  Section Rec.
    Variable rec : nat -> I -> pres aexpr I.
    Hypothesis Hrec : rec_ok rec.

    Lemma run_elems_ok els : forall caps s caps' r, Forall cap_ok caps ->
      run_elems I lx rec els caps s = PMatch caps' r -> Forall cap_ok caps'.
    Proof.
      induction els as [|el els IH]; intros caps s caps' r Hall; cbn [run_elems].
      - intros H; injection H as <- _. assumption.
      - destruct el.
        + apply IH. assumption.
        + destruct (lx_tok lx t s); [apply IH; assumption|congruence].
        + destruct (lx_not lx cls s); [apply IH; assumption|congruence].
        + destruct (rec O s) as [e s'| | |] eqn:Er; try congruence.
          apply IH. constructor; [|assumption]. cbn. eapply Hrec; eassumption.
        + destruct (lx_lvalue lx (rec O) s) as [[x i] s'| | |] eqn:El; try congruence.
          apply IH. constructor; [|assumption]. cbn.
          eapply lvalue_ok; [|eassumption]. intros s0 e0 r0. apply Hrec.
        + destruct (lx_number lx s) as [[z s']|] eqn:En; [|congruence].
          apply IH. constructor; [|assumption]. cbn. eapply lit_ok; eassumption.
    Qed.

    (** the last operand of a prefix or infix rule, then the constructor *)
    Lemma operand_finish_ok r caps p s e rest : Forall cap_ok caps ->
      match rec p s with
      | PMatch e1 s2 => finish I r (VE e1 :: caps) s2
      | PFail => PFail | PFuel => PFuel | PBad => PBad
      end = PMatch e rest -> lits_inr e.
    Proof.
      intros Hall. destruct (rec p s) as [e1 s2| | |] eqn:Er; try congruence.
      apply finish_ok. constructor; [exact (Hrec _ _ _ _ Er)|exact Hall].
    Qed.

    Lemma run_pre_ok prec r s e rest : run_pre I lx rec prec r s = PMatch e rest -> lits_inr e.
    Proof.
      unfold run_pre. destruct (rk r); try congruence;
        (destruct (run_elems I lx rec (rels r) [] s) as [caps s1| | |] eqn:Ee; try congruence;
         apply run_elems_ok in Ee; [|constructor]).
      - apply operand_finish_ok, Ee.
      - apply finish_ok, Ee.
    Qed.
    Lemma run_post_ok prec r left s e rest : lits_inr left ->
      run_post I lx rec prec r left s = PMatch e rest -> lits_inr e.
    Proof.
      intros Hl. unfold run_post. destruct (rk r) as [[|] [|]| | |]; try congruence;
        (destruct (run_elems I lx rec (rels r) [VE left] s) as [caps s1| | |] eqn:Ee; try congruence;
         apply run_elems_ok in Ee; [|constructor; [exact Hl|constructor]]).
      - apply operand_finish_ok, Ee.
      - apply operand_finish_ok, Ee.
      - apply finish_ok, Ee.
    Qed.

    Lemma first_pre_level_ok prec rs s e rest :
      first_pre_level I lx rec prec rs s = PMatch e rest -> lits_inr e.
    Proof.
      induction rs as [|r rs IH]; cbn [first_pre_level]; [congruence|].
      destruct (is_pre r); [|exact IH].
      destruct (run_pre I lx rec prec r s) as [e1 r1| | |] eqn:E; try congruence; [|exact IH].
      intros H; injection H as <- _. eapply run_pre_ok; eassumption.
    Qed.
    Lemma first_pre_ok lv : forall prec s e rest,
      first_pre I lx rec prec lv s = PMatch e rest -> lits_inr e.
    Proof.
      induction lv as [|rs lv IH]; intros prec s e rest; cbn [first_pre]; [congruence|].
      destruct (first_pre_level I lx rec prec rs s) as [e1 r1| | |] eqn:E; try congruence; [|apply IH].
      intros H; injection H as <- _. eapply first_pre_level_ok; eassumption.
    Qed.
    Lemma first_post_level_ok prec rs left s e rest : lits_inr left ->
      first_post_level I lx rec prec rs left s = PMatch e rest -> lits_inr e.
    Proof.
      intros Hl. induction rs as [|r rs IH]; cbn [first_post_level]; [congruence|].
      destruct (is_pre r); [exact IH|].
      destruct (run_post I lx rec prec r left s) as [e1 r1| | |] eqn:E; try congruence; [|exact IH].
      intros H; injection H as <- _. eapply run_post_ok; eassumption.
    Qed.
    Lemma first_post_ok minp lv : forall prec left s e rest, lits_inr left ->
      first_post I lx rec minp prec lv left s = PMatch e rest -> lits_inr e.
    Proof.
      induction lv as [|rs lv IH]; intros prec left s e rest Hl; cbn [first_post]; [congruence|].
      destruct (minp <=? prec)%nat; [|apply IH; assumption].
      destruct (first_post_level I lx rec prec rs left s) as [e1 r1| | |] eqn:E; try congruence; [|apply IH; assumption].
      intros H; injection H as <- _. eapply first_post_level_ok; eassumption.
    Qed.
    Lemma infix_loop_ok n : forall minp left s e rest, lits_inr left ->
      infix_loop I lx tbl rec n minp left s = PMatch e rest -> lits_inr e.
    Proof.
      induction n as [|n IH]; intros minp left s e rest Hl; cbn [infix_loop]; [congruence|].
      destruct (first_post I lx rec minp 0 tbl left s) as [e1 s1| | |] eqn:E; try congruence.
      intros H. eapply IH; [|exact H]. eapply first_post_ok; [exact Hl|exact E].
    Qed.
  End Rec.

  Theorem parse_ok : forall fuel, rec_ok (parse I lx tbl fuel).
  Proof.
    induction fuel as [|f IH]; intros minp s e r; cbn [parse]; [congruence|].
    destruct (first_pre I lx (parse I lx tbl f) 0 tbl s) as [e1 rest| | |] eqn:E; try congruence.
    apply (infix_loop_ok _ IH). eapply first_pre_ok; eassumption.
  Qed.

  Theorem parse_opt_ok b0 s e : parse_opt I lx tbl b0 s = Some e -> lits_inr e.
  Proof.
    unfold parse_opt, parse_full. destruct (lx_empty lx (if b0 then lx_ws lx s else s)).
    - intros H; injection H as <-. cbn. unfold inr, M63. lia.
    - destruct (parse I lx tbl _ 0 _) as [e1 rest| | |] eqn:E; try congruence.
      destruct (lx_empty lx (lx_ws lx rest)); [|congruence].
      intros H; injection H as <-. eapply parse_ok; eassumption.
  Qed.
End ParseRange.

Section CharLvalue.
  Variable cfg : lexcfg.
  Lemma lvalue_ok expr s x i r : (forall s e r, expr s = PMatch e r -> lits_inr e) ->
    lvalue cfg expr s = PMatch (x, i) r -> match i with Some ie => lits_inr ie | None => True end.
  Proof.
    intros Hexpr. unfold lvalue. destruct (variable_name cfg s) as [[x0 rest]|]; [|congruence].
    destruct rest as [|c r1]; [intros H; injection H as <- <- _; exact I|].
    destruct (N.eqb c 91); [|intros H; injection H as <- <- _; exact I].
    destruct (expr _) as [ie r2| | |] eqn:Ee; try congruence.
    - destruct (if subscript_ws cfg then skip_ws cfg r2 else r2) as [|c2 r2']; [intros H; injection H as <- <- _; exact I|].
      destruct (N.eqb c2 93); intros H; injection H as <- <- _; [|exact I].
      eapply Hexpr; eassumption.
    - intros H; injection H as <- <- _. exact I.
  Qed.
End CharLvalue.

Theorem parse_lits_in_range s e : arith_parse s = Some e -> lits_inr e.
Proof.
  apply parse_opt_ok.
  - intros s0 v r. apply literal_number_range; vm_compute; congruence.
  - intros expr s0 x i r. apply lvalue_ok.
Qed.

(** every value [$(( ))] can print is an i64, for every expression, environment and fuel *)
Theorem eval_in_range_parsed nounset fuel s e depth en v en' :
  arith_parse s = Some e ->
  eval arith_parse nounset (max_deref_depth arith_lex) fuel e depth en = ROk v en' -> inr v.
Proof.
  intros Hp. eapply eval_in_range; [exact parse_lits_in_range|]. eapply parse_lits_in_range; eassumption.
Qed.
