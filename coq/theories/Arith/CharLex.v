(** First half of the character-level instance of the round trip: how the real lexical primitives
    ([char_lexer arith_lex]) act on an input in which tokens are separated by single blanks, the
    post-phase facts of [TokProofs.table_facts], and the tests by which a prefix rule or atom is
    excluded from its first characters.  CharProofs.v has the pre-phase facts and the theorem. *)
From Coq Require Import ZifyBool.
From BV Require Import Base.Prelude Base.Decimal Arith.Wrap64 Arith.Ast Arith.Lit Arith.PegPrec
  gen.C07ArithTable Arith.PegFacts Arith.TokProofs.

Notation CL := (char_lexer arith_lex).
Notation SPC := 32%N.

Definition cont (r : T) : str := match r with [] => [] | _ => SPC :: show_toks r end.
Lemma show_toks_cons t r : show_toks (t :: r) = show_tok t ++ cont r.
Proof. destruct r; cbn [show_toks cont]; [rewrite app_nil_r|]; reflexivity. Qed.

Definition oknum (z : Z) : Prop := 0 <= z < M63.
Definition opok (o : str) : Prop :=
  match o with c :: _ => in_class (ws_class arith_lex) c = false | [] => False end.
(** An operator literal that is a proper prefix of the next token ([<] of [<=], [*] of [**])
    matches; the rule then fails at its right operand, because no operand starts with
    [= < > & | *].  That is all the facts need of the recursive parser. *)
Definition bad_class : cclass := [(61, 61); (60, 60); (62, 62); (38, 38); (124, 124); (42, 42)]%N.
Definition bad_start (c : char) : bool := in_class bad_class c.
Definition rec_good (rec : nat -> str -> pres aexpr str) : Prop :=
  forall lvl c s, bad_start c = true -> rec lvl (c :: s) = PFail.

(* membership in the classes of [arith_lex] as linear arithmetic over the bounds (ZifyBool) *)
Ltac class_solve :=
  unfold in_class, is_digit in *;
  cbn [existsb fst snd ws_class name_start name_cont dec_first dec_rest oct_digits hex_marker
       radix_digits hex_digits arith_lex] in *;
  lia.

Lemma name_start_not_ws c : in_class (name_start arith_lex) c = true -> in_class (ws_class arith_lex) c = false.
Proof. intros H. class_solve. Qed.
Lemma name_start_cont c : in_class (name_start arith_lex) c = true -> in_class (name_cont arith_lex) c = true.
Proof. intros H. class_solve. Qed.
Lemma digit_classes c : is_digit c = true ->
  in_class (ws_class arith_lex) c = false /\ in_class (name_start arith_lex) c = false /\
  in_class (dec_rest arith_lex) c = true.
Proof.
  intros H. repeat split; class_solve.
Qed.
Lemma spc_classes : in_class (name_cont arith_lex) SPC = false /\ in_class (dec_rest arith_lex) SPC = false /\
  in_class (oct_digits arith_lex) SPC = false /\ in_class (hex_marker arith_lex) SPC = false /\
  in_class (ws_class arith_lex) SPC = true /\ in_class (name_start arith_lex) SPC = false.
Proof. repeat split; reflexivity. Qed.

Lemma skip_ws_nonws (c : N) (s : list N) : in_class (ws_class arith_lex) c = false -> skip_ws arith_lex (c :: s) = c :: s.
Proof. intros H. cbn [skip_ws]. rewrite H. reflexivity. Qed.

Lemma take_while_app cls s : forall r, take_while cls s = (s, []) ->
  match r with d :: _ => in_class cls d = false | [] => True end -> take_while cls (s ++ r) = (s, r).
Proof.
  induction s as [|c s IH]; intros r Hs Hr.
  - cbn. destruct r as [|d r]; [reflexivity|]. cbn. rewrite Hr. reflexivity.
  - cbn [app take_while] in *. destruct (in_class cls c); [|discriminate].
    destruct (take_while cls s) as [a b] eqn:E. injection Hs as Ha Hb. subst a b.
    rewrite (IH r eq_refl Hr). reflexivity.
Qed.

Lemma okid_inv x : ident_ok x -> exists c x', x = c :: x' /\ in_class (name_start arith_lex) c = true /\
  take_while (name_cont arith_lex) x' = (x', []).
Proof.
  unfold ident_ok, variable_name. destruct x as [|c x']; [discriminate|].
  destruct (in_class (name_start arith_lex) c) eqn:Ec; [|discriminate].
  destruct (take_while (name_cont arith_lex) x') as [n rest] eqn:Et.
  intros H. injection H as Hn Hr. subst n rest. exists c, x'. auto.
Qed.

Definition headspc (w : str) : Prop := match w with [] => True | d :: _ => d = SPC end.
Lemma cont_head r : headspc (cont r).
Proof. destruct r; cbn; auto. Qed.

Lemma variable_name_head (x w : str) : ident_ok x -> headspc w -> variable_name arith_lex (x ++ w) = Some (x, w).
Proof.
  intros Hx Hz. destruct (okid_inv x Hx) as (c & x' & -> & Hc & Ht).
  cbn [app variable_name]. rewrite Hc. rewrite (take_while_app _ x' w Ht); [reflexivity|].
  destruct w as [|d w']; [exact I|]. cbn in Hz. subst d. reflexivity.
Qed.

Lemma lvalue_ident expr (x w : str) : ident_ok x -> headspc w ->
  lvalue arith_lex expr (x ++ w) = PMatch (x, None) w.
Proof.
  intros Hx Hz. unfold lvalue. rewrite variable_name_head by assumption.
  destruct w as [|d w']; [reflexivity|]. cbn in Hz. subst d. reflexivity.
Qed.

Lemma okid_first_not_ws x s : ident_ok x -> exists c s', x ++ s = c :: s' /\ in_class (ws_class arith_lex) c = false.
Proof.
  intros Hx. destruct (okid_inv x Hx) as (c & x' & -> & Hc & _).
  exists c, (x' ++ s). split; [reflexivity|]. apply name_start_not_ws. exact Hc.
Qed.

Lemma show_N_fuel_lead f : forall n acc, (0 < n)%N -> (Z.of_N n < 10 ^ Z.of_nat f) ->
  exists d rest, show_N_fuel f n acc = d :: rest /\ (49 <= d <= 57)%N.
Proof.
  induction f as [|f IH]; intros n acc Hn Hb.
  - cbn in Hb. lia.
  - cbn [show_N_fuel]. destruct (N.ltb_spec n 10) as [Hlt|Hge].
    + exists (48 + n mod 10)%N, acc. split; [reflexivity|]. rewrite N.mod_small by assumption. lia.
    + apply IH.
      * apply N.div_str_pos. lia.
      * rewrite N2Z.inj_div. apply Z.div_lt_upper_bound; [lia|].
        rewrite Nat2Z.inj_succ, Z.pow_succ_r in Hb by lia. exact Hb.
Qed.

Lemma show_Z_pos z : 0 < z -> exists d ds, show_Z z = d :: ds /\ (49 <= d <= 57)%N /\ all_digits ds /\
  val 0 (d :: ds) = z.
Proof.
  intros Hz. unfold show_Z. destruct (Z.ltb_spec z 0); [lia|].
  destruct (show_N_spec (Z.to_N z)) as (Ha & Hv & _).
  unfold show_N in *.
  destruct (show_N_fuel_lead (S (N.size_nat (Z.to_N z))) (Z.to_N z) [] ltac:(lia) (size_bound _)) as (d & ds & E & Hd).
  rewrite E in *. exists d, ds. split; [reflexivity|]. split; [exact Hd|]. split; [inversion Ha; assumption|].
  rewrite Hv. lia.
Qed.

Lemma take_while_digits ds r : all_digits ds -> headspc r ->
  take_while (dec_rest arith_lex) (ds ++ r) = (ds, r).
Proof.
  intros Ha Hr. apply take_while_app.
  - induction Ha as [|c s Hc _ IH]; [reflexivity|]. cbn [take_while].
    destruct (digit_classes c Hc) as (_ & _ & ->). rewrite IH. reflexivity.
  - destruct r as [|d ?]; [exact I|]. cbn in Hr. subst d. reflexivity.
Qed.

Lemma to_digit_dec c : is_digit c = true -> to_digit 10 c = Some (dval c).
Proof.
  unfold is_digit, to_digit, dval. intros H. rewrite H.
  apply andb_prop in H as [H1 H2]. apply N.leb_le in H1, H2.
  destruct (Z.ltb_spec (Z.of_N c - 48) 10); [reflexivity|lia].
Qed.
Lemma radix_val_dec s : all_digits s -> forall acc, radix_val 10 acc s = Some (val acc s).
Proof.
  induction 1 as [|c s Hc _ IH]; intros acc; cbn [radix_val val]; [reflexivity|].
  rewrite to_digit_dec by exact Hc. apply IH.
Qed.
Lemma dmap_dec c : is_digit c = true -> dmap_val (dmap_ci arith_lex) c = Some (dval c) /\ 0 <= dval c < 10.
Proof.
  unfold is_digit, dval. intros H. apply andb_prop in H as [H1 H2]. apply N.leb_le in H1, H2.
  cbn [dmap_ci arith_lex dmap_val]. destruct (N.leb_spec 48 c); [|lia]. destruct (N.leb_spec c 57); [|lia].
  cbn. split; [f_equal; lia|lia].
Qed.
Lemma val_congr s : forall a b, a mod M64 = b mod M64 -> (val a s) mod M64 = (val b s) mod M64.
Proof.
  induction s as [|c s IH]; intros a b Hab; cbn [val]; [exact Hab|].
  apply IH. rewrite Zplus_mod, Zmult_mod, Hab, <- Zmult_mod, <- Zplus_mod. reflexivity.
Qed.
Lemma shell_digits_dec s : all_digits s -> forall acc, inr acc ->
  shell_digits arith_lex 10 acc s = Some (wrap64 (val acc s)).
Proof.
  induction 1 as [|c s Hc _ IH]; intros acc Hacc; cbn [shell_digits val].
  - rewrite wrap64_id by exact Hacc. reflexivity.
  - replace (10 <=? radix_ci_max arith_lex) with true by reflexivity.
    destruct (dmap_dec c Hc) as [-> Hd].
    destruct (Z.geb_spec (dval c) 10); [lia|].
    rewrite IH by apply wadd_range. f_equal.
    apply wrap64_eqm. apply val_congr. unfold wadd, wmul. rewrite wrap64_mod.
    rewrite Zplus_mod, wrap64_mod, <- Zplus_mod. reflexivity.
Qed.

Lemma lead_is_digit (d : char) : (49 <= d <= 57)%N -> is_digit d = true.
Proof. intros H. unfold is_digit. lia. Qed.

Lemma decimal_value (d : char) (ds : str) z : (49 <= d <= 57)%N -> all_digits ds -> val 0 (d :: ds) = z -> oknum z ->
  (if dec_wrap arith_lex then parse_shell_literal_number arith_lex (d :: ds) 10 else u64_parse_cast (d :: ds)) = Some z.
Proof.
  intros Hd Ha Hv Hz.
  assert (Hall : all_digits (d :: ds)).
  { constructor; [apply lead_is_digit; exact Hd|exact Ha]. }
  destruct (dec_wrap arith_lex).
  - unfold parse_shell_literal_number. replace ((radix_min arith_lex <=? 10) && (10 <=? radix_max arith_lex))%bool with true by reflexivity.
    rewrite shell_digits_dec; [|exact Hall|unfold inr, M63; lia]. rewrite Hv.
    rewrite wrap64_id; [reflexivity|]. unfold oknum, inr, M63 in *. lia.
  - unfold u64_parse_cast. rewrite radix_val_dec by exact Hall. rewrite Hv.
    unfold oknum, M63 in Hz. destruct (Z.ltb_spec z M64); [|unfold M64 in *; lia].
    rewrite wrap64_id; [reflexivity|unfold inr, M63; lia].
Qed.

Lemma literal_number_dec (d : char) (ds r : str) : (49 <= d <= 57)%N -> all_digits ds -> headspc r ->
  literal_number arith_lex (d :: ds ++ r) =
  match (if dec_wrap arith_lex then parse_shell_literal_number arith_lex (d :: ds) 10 else u64_parse_cast (d :: ds)) with
  | Some v => Some (v, r)
  | None => None
  end.
Proof.
  intros Hd Ha Hh. unfold literal_number.
  assert (Edec : decimal_literal arith_lex (d :: ds ++ r) =
                 match (if dec_wrap arith_lex then parse_shell_literal_number arith_lex (d :: ds) 10 else u64_parse_cast (d :: ds)) with
                 | Some v => Some (v, r)
                 | None => None
                 end).
  { unfold decimal_literal. replace (in_class (dec_first arith_lex) d) with true by (symmetry; class_solve).
    rewrite (take_while_digits ds r Ha Hh). reflexivity. }
  assert (E1 : lit_radix arith_lex (d :: ds ++ r) = None).
  { unfold lit_radix. rewrite Edec. destruct (if dec_wrap arith_lex then _ else _); [|reflexivity].
    destruct r as [|c0 c1]; [reflexivity|]. cbn in Hh. subst c0. reflexivity. }
  assert (Hd48 : N.eqb d 48 = false) by (apply N.eqb_neq; lia).
  assert (E2 : lit_hex arith_lex (d :: ds ++ r) = None).
  { unfold lit_hex. destruct (ds ++ r); [reflexivity|]. cbn [hex_lead arith_lex]. rewrite Hd48. reflexivity. }
  assert (E3 : lit_oct arith_lex (d :: ds ++ r) = None).
  { unfold lit_oct. cbn [oct_lead arith_lex]. rewrite Hd48. reflexivity. }
  rewrite E1, E2, E3. exact Edec.
Qed.

Lemma literal_number_show z r : oknum z -> literal_number arith_lex (show_Z z ++ cont r) = Some (z, cont r).
Proof.
  intros Hz. pose proof (cont_head r) as Hh.
  destruct (Z.eq_dec z 0) as [->|Hnz].
  - (* "0": the octal alternative *)
    change (show_Z 0) with [48%N]. destruct (cont r) as [|d c0]; [reflexivity|]. cbn in Hh. subst d. reflexivity.
  - destruct (show_Z_pos z ltac:(unfold oknum in Hz; lia)) as (d & ds & -> & Hd & Ha & Hv).
    cbn [app]. rewrite (literal_number_dec d ds _ Hd Ha Hh), (decimal_value d ds z Hd Ha Hv Hz). reflexivity.
Qed.

Lemma oknum_first z s : oknum z -> exists c s', show_Z z ++ s = c :: s' /\ is_digit c = true.
Proof.
  intros Hz. destruct (Z.eq_dec z 0) as [->|Hnz].
  - exists 48%N, s. split; reflexivity.
  - destruct (show_Z_pos z ltac:(unfold oknum in Hz; lia)) as (d & ds & -> & Hd & _).
    exists d, (ds ++ s). split; [reflexivity|]. apply lead_is_digit. exact Hd.
Qed.

Lemma first_ok_head s : first_ok ident_ok oknum opok s ->
  exists c s', show_toks s = c :: s' /\ in_class (ws_class arith_lex) c = false.
Proof.
  destruct s as [|t r]; [intros []|]. rewrite show_toks_cons. destruct t as [z|x|o]; cbn [first_ok show_tok].
  - intros Hz. destruct (oknum_first z (cont r) Hz) as (c & s' & -> & Hc). exists c, s'. split; [reflexivity|].
    apply (digit_classes c Hc).
  - intros Hx. apply okid_first_not_ws. exact Hx.
  - unfold opok. destruct o as [|c o']; [intros []|]. intros Hc. exists c, (o' ++ cont r). auto.
Qed.
Lemma skip_ws_cont s : first_ok ident_ok oknum opok s -> skip_ws arith_lex (cont s) = show_toks s.
Proof.
  intros H. destruct (first_ok_head s H) as (c & s' & E & Hc).
  destruct s as [|t r]; [destruct H|]. unfold cont. cbn [skip_ws].
  replace (in_class (ws_class arith_lex) SPC) with true by reflexivity.
  rewrite E. apply skip_ws_nonws. exact Hc.
Qed.
Lemma skip_ws_enc s : first_ok ident_ok oknum opok s -> skip_ws arith_lex (show_toks s) = show_toks s.
Proof.
  intros H. destruct (first_ok_head s H) as (c & s' & E & Hc). rewrite E. apply skip_ws_nonws. exact Hc.
Qed.

Notation cfirst_pre := (first_pre str CL).
Notation cfirst_pre_level := (first_pre_level str CL).
Notation cfirst_post := (first_post str CL).
Notation crun_pre := (run_pre str CL).
Notation crun_post := (run_post str CL).
Notation crun_elems := (run_elems str CL).

(** matching an operator literal against a known prefix [p] of the input:
    [None] = mismatch inside [p]; [Some None] = [p] ran out; [Some (Some r)] = matched, [r] left of [p] *)
Fixpoint dp (t p : str) : option (option str) :=
  match t, p with
  | [], _ => Some (Some p)
  | _ :: _, [] => Some None
  | x :: t', y :: p' => if N.eqb x y then dp t' p' else None
  end.
Lemma dp_none (t : str) : forall (p X : str), dp t p = None -> drop_prefix t (p ++ X) = None.
Proof.
  induction t as [|x t IH]; intros p X; [discriminate|]. destruct p as [|y p]; [discriminate|].
  cbn. destruct (N.eqb x y); [apply IH|reflexivity].
Qed.
Lemma dp_some (t : str) : forall (p r X : str), dp t p = Some (Some r) -> drop_prefix t (p ++ X) = Some (r ++ X).
Proof.
  induction t as [|x t IH]; intros p r X.
  - cbn. intros H; injection H as <-. reflexivity.
  - destruct p as [|y p]; [discriminate|]. cbn. destruct (N.eqb x y); [apply IH|discriminate].
Qed.
Lemma dp_end (t : str) : forall p, dp t p = Some None -> drop_prefix t p = None.
Proof.
  induction t as [|x t IH]; intros p; [discriminate|]. destruct p as [|y p]; [reflexivity|].
  cbn. destruct (N.eqb x y); [apply IH|discriminate].
Qed.
Lemma drop_prefix_app (t Y : str) : drop_prefix t (t ++ Y) = Some Y.
Proof. induction t as [|x t IH]; cbn; [reflexivity|]. rewrite N.eqb_refl. exact IH. Qed.

Lemma bad_start_not_ws c : bad_start c = true -> in_class (ws_class arith_lex) c = false.
Proof. unfold bad_start, bad_class. intros H. class_solve. Qed.

Lemma app_blank (p Y : list N) : p ++ SPC :: Y = (p ++ [SPC]) ++ Y.
Proof. rewrite <- app_assoc. reflexivity. Qed.

Lemma skip_ws_spc (X : str) : skip_ws arith_lex (SPC :: X) = skip_ws arith_lex X.
Proof. reflexivity. Qed.

Lemma cont_blank (p X : list N) t r : show_tok t = p -> cont r = X -> SPC :: p ++ X = cont (t :: r).
Proof. intros <- <-. unfold cont at 2. rewrite show_toks_cons. reflexivity. Qed.

Lemma skip_ws_cont_cons t r : opok (show_tok t) ->
  skip_ws arith_lex (cont (t :: r)) = show_tok t ++ cont r.
Proof.
  intros H. unfold cont at 1. rewrite show_toks_cons, skip_ws_spc.
  destruct (show_tok t) as [|c p]; [destruct H|]. apply skip_ws_nonws. exact H.
Qed.

Lemma skip_ws_cont_op t s : opok t -> first_ok ident_ok oknum opok s ->
  skip_ws arith_lex (cont (TOp t :: s)) = (t ++ [SPC]) ++ show_toks s.
Proof.
  intros Ht Hs. rewrite (skip_ws_cont_cons (TOp t) s Ht). cbn [show_tok].
  destruct s; [destruct Hs|]. apply app_blank.
Qed.

(** Behind [_], the input is [p ++ X] with [p] known.  An infix rule fails when its operator
    literal mismatches [p]; when it matches a proper prefix of the operator in [p] and leaves a
    character that starts no operand; when the input ends inside it ([atend]: [X] is empty). *)
Definition crule_rejects (atend : bool) (p : str) (r : rule) : bool :=
  markers_ok r &&
  match rk r, rels r with
  | KInfix _ _, EWs :: ETok t :: els =>
    match dp t p with
    | None => true
    | Some (Some (c :: _)) => bad_start c && match els with [EWs] => true | _ => false end
    | Some None => atend
    | _ => false
    end
  | _, _ => false
  end.

Lemma crule_rejects_ok (atend : bool) rec (p X w : str) left : rec_good rec ->
  skip_ws arith_lex w = p ++ X -> (if atend return Prop then X = [] else True) ->
  forall k r, crule_rejects atend p r = true -> crun_post rec k r left w = PFail.
Proof.
  intros Hg Hz Hend k r H. unfold crule_rejects in H.
  apply andb_true_iff in H as [Hm H]. unfold run_post. unfold markers_ok in Hm.
  destruct (rk r) as [la ra| | |]; try discriminate.
  destruct (rels r) as [|[| | | | |] [|[|t| | | |] els]]; try discriminate.
  assert (E : crun_elems rec (EWs :: ETok t :: els) [VE left] w =
              match drop_prefix t (p ++ X) with
              | Some s' => crun_elems rec els [VE left] s'
              | None => PFail
              end).
  { cbn [run_elems lx_ws lx_tok char_lexer]. rewrite Hz. reflexivity. }
  rewrite E. clear E.
  destruct (dp t p) as [[[|c r0]|]|] eqn:Ed; try discriminate.
  - apply andb_true_iff in H as [Hb He]. destruct els as [|[| | | | |] [|? ?]]; try discriminate.
    rewrite (dp_some _ _ _ _ Ed). cbn [app run_elems lx_ws char_lexer].
    rewrite skip_ws_nonws by (apply bad_start_not_ws; exact Hb).
    destruct la, ra; try discriminate; rewrite Hg by exact Hb; reflexivity.
  - rewrite H in Hend. rewrite Hend, app_nil_r, (dp_end _ _ Ed). destruct la, ra; try discriminate; reflexivity.
  - rewrite (dp_none _ _ _ Ed). destruct la, ra; try discriminate; reflexivity.
Qed.
Arguments crule_rejects_ok atend rec {p X w} left.

(** the text of a follow token as [crule_rejects] sees it *)
Definition ftext (f : ftok) (atend : bool) : str :=
  if atend then show_tok (tok_of_f f) else show_tok (tok_of_f f) ++ [SPC].

Lemma ftok_nonws f : opok (show_tok (tok_of_f f)).
Proof. destruct f as [| | |o]; [| | |destruct o]; reflexivity. Qed.

Lemma follow_text f r' : exists atend X,
  skip_ws arith_lex (cont (tok_of_f f :: r')) = ftext f atend ++ X /\ (if atend return Prop then X = [] else True).
Proof.
  pose proof (skip_ws_cont_cons _ r' (ftok_nonws f)) as Hz. destruct r' as [|t2 r2].
  - exists true, []. split; [exact Hz|reflexivity].
  - exists false, (show_toks (t2 :: r2)). cbn [cont] in Hz. rewrite app_blank in Hz. split; [exact Hz|exact I].
Qed.

Lemma stop_follow f atend :
  levels_stop (post_keep (crule_rejects atend (ftext f atend))) (flevel f) 0 arith_table = true.
Proof. destruct f as [| | |o]; [| | |destruct o]; destruct atend; reflexivity. Qed.

Lemma cpost_nil rec m left : rec_good rec -> cfirst_post rec m 0 arith_table left [] = PFail.
Proof.
  intros Hg.
  apply (first_post_stop (crule_rejects_ok true rec (p := []) (X := []) (w := []) left Hg eq_refl eq_refl) m None);
    [reflexivity|exact I].
Qed.

Lemma cpost_stop rec m left r : rec_good rec -> follow_ok m r ->
  cfirst_post rec m 0 arith_table left (cont r) = PFail.
Proof.
  intros Hg [->|(f & r' & -> & Hf)]; [apply cpost_nil; exact Hg|].
  destruct (follow_text f r') as (atend & X & Hz & Hend).
  apply (first_post_stop (crule_rejects_ok atend rec (p := ftext f atend) left Hg Hz Hend) m (flevel f));
    [apply stop_follow|exact Hf].
Qed.

Lemma crun_post_bin rec o left (w X : str) b s' :
  skip_ws arith_lex w = (bintok o ++ [SPC]) ++ X -> skip_ws arith_lex X = X ->
  rec (rlevel o) X = PMatch b s' ->
  crun_post rec (blevel o) (bin_rule o) left w = PMatch (EBin o left b) s'.
Proof.
  intros Hz HX Hrec. unfold run_post, bin_rule, rlevel in *.
  cbn [rk rels run_elems lx_ws lx_tok char_lexer].
  rewrite Hz, <- app_assoc, drop_prefix_app. cbn [app]. rewrite skip_ws_spc, HX.
  destruct (right_assoc o); cbn [negb]; rewrite Hrec; reflexivity.
Qed.

Lemma bin_found o :
  find_level (post_keep (crule_rejects false (bintok o ++ [SPC]))) 0 arith_table = Some (blevel o, bin_rule o).
Proof. destruct o; reflexivity. Qed.

Lemma cpost_bin rec m left o s b s' : rec_good rec -> (m <= blevel o)%nat -> first_ok ident_ok oknum opok s ->
  rec (rlevel o) (show_toks s) = PMatch b s' ->
  cfirst_post rec m 0 arith_table left (cont (TOp (bintok o) :: s)) = PMatch (EBin o left b) s'.
Proof.
  intros Hg Hm Hs Hrec. pose proof (skip_ws_cont_op (bintok o) s (ftok_nonws (FBin o)) Hs) as Hz.
  apply (first_post_hit
           (crule_rejects_ok false rec left Hg Hz I)
           m 0%nat (bin_found o) Hm).
  exact (crun_post_bin rec o left _ _ b s' Hz (skip_ws_enc s Hs) Hrec).
Qed.

Lemma cond_found :
  find_level (post_keep (crule_rejects false ([63%N] ++ [SPC]))) 0 arith_table = Some (2%nat, cond_rule).
Proof. reflexivity. Qed.

Lemma cpost_cond rec m left s t s1 f s2 : rec_good rec -> (m <= 2)%nat ->
  first_ok ident_ok oknum opok s -> first_ok ident_ok oknum opok s1 ->
  rec 0%nat (show_toks s) = PMatch t (cont (COL :: s1)) -> rec 2%nat (show_toks s1) = PMatch f s2 ->
  cfirst_post rec m 0 arith_table left (cont (QM :: s)) = PMatch (ECond left t f) s2.
Proof.
  intros Hg Hm Hs Hs1 Ht Hf.
  pose proof (skip_ws_cont_op [63%N] s eq_refl Hs) as Hz.
  pose proof (skip_ws_cont_op [58%N] s1 eq_refl Hs1) as Hz1.
  apply (first_post_hit
           (crule_rejects_ok false rec left Hg Hz I)
           m 0%nat cond_found Hm).
  unfold run_post, cond_rule. cbn [rk rels run_elems lx_ws lx_tok char_lexer].
  rewrite Hz. cbn [app drop_prefix N.eqb Pos.eqb]. rewrite skip_ws_spc, (skip_ws_enc s Hs), Ht.
  change (cont (COL :: s1)) with (cont (TOp [58%N] :: s1)). rewrite Hz1.
  cbn [app drop_prefix N.eqb Pos.eqb]. rewrite skip_ws_spc, (skip_ws_enc s1 Hs1), Hf. reflexivity.
Qed.

Definition disjointb (a b : cclass) : bool :=
  forallb (fun ra => forallb (fun rb => (snd ra <? fst rb)%N || (snd rb <? fst ra)%N) b) a.
Lemma disjointb_ok a b c : disjointb a b = true -> in_class a c = true -> in_class b c = false.
Proof.
  unfold disjointb, in_class. intros Hd Ha.
  apply existsb_exists in Ha as (ra & Hin & Hra).
  rewrite forallb_forall in Hd. specialize (Hd ra Hin). rewrite forallb_forall in Hd.
  destruct (existsb _ b) eqn:E; [|reflexivity].
  apply existsb_exists in E as (rb & Hinb & Hrb). specialize (Hd rb Hinb). lia.
Qed.

Definition digit_class : cclass := [(48, 57)]%N.
Lemma literal_number_nondigit (c : char) (s : str) : in_class digit_class c = false ->
  literal_number arith_lex (c :: s) = None.
Proof.
  intros Hc. unfold literal_number, lit_radix, lit_hex, lit_oct, decimal_literal. unfold digit_class in Hc.
  assert (H1 : in_class (dec_first arith_lex) c = false) by class_solve.
  assert (H2 : N.eqb c (hex_lead arith_lex) = false) by (cbn [hex_lead arith_lex]; unfold in_class, digit_class in Hc; cbn [existsb fst snd] in Hc; lia).
  assert (H3 : N.eqb c (oct_lead arith_lex) = false) by (cbn [oct_lead arith_lex]; unfold in_class, digit_class in Hc; cbn [existsb fst snd] in Hc; lia).
  rewrite H1, H3. destruct s as [|c1 s2]; [reflexivity|]. rewrite H2. reflexivity.
Qed.
Lemma lvalue_nonname expr (c : char) (s : str) : in_class (name_start arith_lex) c = false ->
  lvalue arith_lex expr (c :: s) = PFail.
Proof. intros Hc. unfold lvalue, variable_name. rewrite Hc. reflexivity. Qed.

(** a prefix rule or atom cannot accept an input whose first character lies in [cls] *)
Definition prule_rejects (cls : cclass) (r : rule) : bool :=
  match rels r with
  | ETok (t0 :: _) :: _ => disjointb cls [(t0, t0)]
  | ELval :: _ => disjointb cls (name_start arith_lex)
  | ENum :: _ => disjointb cls digit_class
  | _ => false
  end.

Lemma prule_rejects_ok rec cls (c : char) (s : str) : in_class cls c = true ->
  forall k r, is_pre r = true -> prule_rejects cls r = true -> crun_pre rec k r (c :: s) = PFail.
Proof.
  intros Hc k r Hp H. unfold prule_rejects in H.
  assert (Hel : crun_elems rec (rels r) [] (c :: s) = PFail).
  { destruct (rels r) as [|[|[|t0 t]| | | |] els]; try discriminate;
      cbn [run_elems lx_tok lx_lvalue lx_number char_lexer].
    - pose proof (disjointb_ok _ _ c H Hc) as Hd. unfold in_class in Hd. cbn [existsb fst snd] in Hd.
      cbn [drop_prefix]. replace (N.eqb t0 c) with false by lia. reflexivity.
    - rewrite lvalue_nonname; [reflexivity|]. eapply disjointb_ok; eassumption.
    - rewrite literal_number_nondigit; [reflexivity|]. eapply disjointb_ok; eassumption. }
  unfold run_pre. unfold is_pre in Hp. destruct (rk r); try discriminate; rewrite Hel; reflexivity.
Qed.

Lemma rec_good_parse f : (1 <= f)%nat -> rec_good (parse str CL arith_table f).
Proof.
  intros Hf lvl c s Hc. destruct f as [|f]; [lia|]. cbn [parse].
  rewrite (first_pre_none (prule_rejects_ok _ bad_class c s Hc) arith_table 0%nat eq_refl).
  reflexivity.
Qed.

(** Behind an identifier and [_] the input is [p ++ X] with [p] known.  The rules that start with
    [lvalue _ "op"] (assignments, postfix increments) fail as an infix rule does in
    [crule_rejects]. *)
Definition arule_rejects (atend : bool) (p : str) (r : rule) : bool :=
  match rels r with
  | ELval :: EWs :: ETok t :: els =>
    match dp t p with
    | None => true
    | Some (Some (c :: _)) =>
      bad_start c && match els, rk r with [EWs], KPrefix _ => true | _, _ => false end
    | Some None => atend
    | _ => false
    end
  | _ => false
  end.

Lemma arule_rejects_ok (atend : bool) rec (x w p X : str) : rec_good rec -> ident_ok x -> headspc w ->
  skip_ws arith_lex w = p ++ X -> (if atend return Prop then X = [] else True) ->
  forall k r, is_pre r = true -> arule_rejects atend p r = true -> crun_pre rec k r (x ++ w) = PFail.
Proof.
  intros Hg Hx Hh Hz Hend k r Ep H. unfold arule_rejects in H.
  destruct (rels r) as [|[| | | |  |] [|[| | | | |] [|[|t| | | |] els]]] eqn:Er; try discriminate.
  assert (E0 : forall caps, crun_elems rec (ELval :: EWs :: ETok t :: els) caps (x ++ w) =
               match drop_prefix t (p ++ X) with
               | Some s' => crun_elems rec els (VT x None :: caps) s'
               | None => PFail
               end).
  { intros caps. cbn [run_elems lx_lvalue lx_ws lx_tok char_lexer].
    rewrite (lvalue_ident _ x w Hx Hh), Hz. reflexivity. }
  unfold run_pre. rewrite Er. unfold is_pre in Ep.
  destruct (dp t p) as [[[|c r0]|]|] eqn:Ed; try discriminate.
  - apply andb_true_iff in H as [Hb He].
    destruct els as [|[| | | | |] [|? ?]]; try discriminate. destruct (rk r) eqn:Ek; try discriminate.
    rewrite E0, (dp_some _ _ _ _ Ed). cbn [app run_elems lx_ws char_lexer].
    rewrite skip_ws_nonws by (apply bad_start_not_ws; exact Hb). rewrite Hg by exact Hb. reflexivity.
  - assert (E1 : drop_prefix t (p ++ X) = None) by (rewrite H in Hend; rewrite Hend, app_nil_r; apply dp_end; exact Ed).
    destruct (rk r); try discriminate; rewrite E0, E1; reflexivity.
  - destruct (rk r); try discriminate; rewrite E0, (dp_none _ _ _ Ed); reflexivity.
Qed.

Definition id_rejects (atend : bool) (p : str) (r : rule) : bool :=
  prule_rejects (name_start arith_lex) r || arule_rejects atend p r.

Lemma id_rejects_ok (atend : bool) rec (x w p X : str) : rec_good rec -> ident_ok x -> headspc w ->
  skip_ws arith_lex w = p ++ X -> (if atend return Prop then X = [] else True) ->
  forall k r, is_pre r = true -> id_rejects atend p r = true -> crun_pre rec k r (x ++ w) = PFail.
Proof.
  intros Hg Hx Hh Hz Hend k r Ep H. apply orb_true_iff in H as [H|H].
  - destruct (okid_inv x Hx) as (c & x' & -> & Hc & _). exact (prule_rejects_ok rec _ c _ Hc k r Ep H).
  - exact (arule_rejects_ok atend rec x w p X Hg Hx Hh Hz Hend k r Ep H).
Qed.
