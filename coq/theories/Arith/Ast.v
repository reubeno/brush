(** The arithmetic AST of brush-parser/src/ast.rs ([ArithmeticExpr], [ArithmeticTarget],
    [BinaryOperator], [UnaryOperator], [UnaryAssignmentOperator]) and its canonical printed
    form (the s-expression the harness prints for the real AST). *)
From Coq Require Import String.
From BV Require Import Base.Prelude Base.Codec.

Inductive binop :=
  | Comma | LOr | LAnd | BOr | BXor | BAnd | Eq | Ne | Lt | Gt | Le | Ge
  | Shl | Shr | Add | Sub | Mul | Mod | Div | Pow.
Inductive unop := LNot | BNot | UPlus | UMinus.
Inductive incop := PreInc | PreDec | PostInc | PostDec.

(** A target is a variable name with an optional index expression
    ([ArithmeticTarget::Variable] / [ArrayElement]). *)
Inductive aexpr :=
  | ELit (z : Z)
  | ERef (x : str) (i : option aexpr)
  | EUn (o : unop) (e : aexpr)
  | EBin (o : binop) (a b : aexpr)
  | ECond (c t e : aexpr)
  | EAssign (x : str) (i : option aexpr) (e : aexpr)
  | EIncr (o : incop) (x : str) (i : option aexpr)
  | EBinAssign (o : binop) (x : str) (i : option aexpr) (e : aexpr).

Definition target : Type := str * option aexpr.

Definition binop_eqb (a b : binop) : bool :=
  match a, b with
  | Comma, Comma | LOr, LOr | LAnd, LAnd | BOr, BOr | BXor, BXor | BAnd, BAnd | Eq, Eq | Ne, Ne
  | Lt, Lt | Gt, Gt | Le, Le | Ge, Ge | Shl, Shl | Shr, Shr | Add, Add | Sub, Sub | Mul, Mul
  | Mod, Mod | Div, Div | Pow, Pow => true
  | _, _ => false
  end.
Lemma binop_eqb_eq a b : binop_eqb a b = true <-> a = b.
Proof. destruct a, b; cbn; split; congruence. Qed.

Section Ind.
  Variable P : aexpr -> Prop.
  Definition Popt (i : option aexpr) : Prop := match i with Some e => P e | None => True end.
  Hypothesis HLit : forall z, P (ELit z).
  Hypothesis HRef : forall x i, Popt i -> P (ERef x i).
  Hypothesis HUn : forall o e, P e -> P (EUn o e).
  Hypothesis HBin : forall o a b, P a -> P b -> P (EBin o a b).
  Hypothesis HCond : forall c t e, P c -> P t -> P e -> P (ECond c t e).
  Hypothesis HAssign : forall x i e, Popt i -> P e -> P (EAssign x i e).
  Hypothesis HIncr : forall o x i, Popt i -> P (EIncr o x i).
  Hypothesis HBinAssign : forall o x i e, Popt i -> P e -> P (EBinAssign o x i e).
  Fixpoint aexpr_ind' (e : aexpr) : P e :=
    let opt (i : option aexpr) : Popt i :=
      match i with Some e => aexpr_ind' e | None => I end in
    match e with
    | ELit z => HLit z
    | ERef x i => HRef x i (opt i)
    | EUn o e => HUn o e (aexpr_ind' e)
    | EBin o a b => HBin o a b (aexpr_ind' a) (aexpr_ind' b)
    | ECond c t e => HCond c t e (aexpr_ind' c) (aexpr_ind' t) (aexpr_ind' e)
    | EAssign x i e => HAssign x i e (opt i) (aexpr_ind' e)
    | EIncr o x i => HIncr o x i (opt i)
    | EBinAssign o x i e => HBinAssign o x i e (opt i) (aexpr_ind' e)
    end.
End Ind.

Fixpoint height (e : aexpr) : nat :=
  let hopt (i : option aexpr) := match i with Some e => height e | None => O end in
  match e with
  | ELit _ => 1
  | ERef _ i => S (hopt i)
  | EUn _ e => S (height e)
  | EBin _ a b => S (Nat.max (height a) (height b))
  | ECond c t e => S (Nat.max (height c) (Nat.max (height t) (height e)))
  | EAssign _ i e => S (Nat.max (hopt i) (height e))
  | EIncr _ _ i => S (hopt i)
  | EBinAssign _ _ i e => S (Nat.max (hopt i) (height e))
  end.

Definition binop_name (o : binop) : str :=
  lit match o with
      | Comma => "Comma" | LOr => "LogicalOr" | LAnd => "LogicalAnd" | BOr => "BitwiseOr"
      | BXor => "BitwiseXor" | BAnd => "BitwiseAnd" | Eq => "Equals" | Ne => "NotEquals"
      | Lt => "LessThan" | Gt => "GreaterThan" | Le => "LessThanOrEqualTo"
      | Ge => "GreaterThanOrEqualTo" | Shl => "ShiftLeft" | Shr => "ShiftRight" | Add => "Add"
      | Sub => "Subtract" | Mul => "Multiply" | Mod => "Modulo" | Div => "Divide" | Pow => "Power"
      end.
Definition unop_name (o : unop) : str :=
  lit match o with LNot => "LogicalNot" | BNot => "BitwiseNot" | UPlus => "UnaryPlus" | UMinus => "UnaryMinus" end.
Definition incop_name (o : incop) : str :=
  lit match o with PreInc => "PrefixIncrement" | PreDec => "PrefixDecrement"
              | PostInc => "PostfixIncrement" | PostDec => "PostfixDecrement" end.

Definition SP : str := [32%N].
Definition par (l : list str) : str := (40%N :: concat l) ++ [41%N].

Fixpoint show_ast (e : aexpr) : str :=
  let tgt (x : str) (i : option aexpr) : str :=
    match i with
    | None => par [lit "var "; x]
    | Some ie => par [lit "elem "; x; SP; show_ast ie]
    end in
  match e with
  | ELit z => par [lit "lit "; show_Z z]
  | ERef x i => par [lit "ref "; tgt x i]
  | EUn o e => par [lit "un "; unop_name o; SP; show_ast e]
  | EBin o a b => par [lit "bin "; binop_name o; SP; show_ast a; SP; show_ast b]
  | ECond c t e => par [lit "cond "; show_ast c; SP; show_ast t; SP; show_ast e]
  | EAssign x i e => par [lit "assign "; tgt x i; SP; show_ast e]
  | EIncr o x i => par [lit "incr "; incop_name o; SP; tgt x i]
  | EBinAssign o x i e => par [lit "binassign "; binop_name o; SP; tgt x i; SP; show_ast e]
  end.
