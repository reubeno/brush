(** The level walks of [PegPrec] over a table in which some rules are known to fail on the input
    at hand ([rej]).  The prefix/atom phase tries the remaining rules in turn ([first_pre_kept]);
    either phase is decided by the first of them when that one matches; the loop stops when none
    is left from the level of the call upwards ([first_post_stop]).  [kept_rules], [find_level]
    and [levels_stop] are plain functions of the table: for a concrete table, one evaluation. *)
From BV Require Import Base.Prelude Arith.Ast Arith.PegPrec.

Fixpoint find_rule (keep : rule -> bool) (rs : list rule) : option rule :=
  match rs with
  | [] => None
  | r :: rs' => if keep r then Some r else find_rule keep rs'
  end.
Fixpoint find_level (keep : rule -> bool) (k : nat) (lv : table) : option (nat * rule) :=
  match lv with
  | [] => None
  | rs :: lv' => match find_rule keep rs with
                 | Some r => Some (k, r)
                 | None => find_level keep (S k) lv'
                 end
  end.

Fixpoint kept_rules (keep : rule -> bool) (k : nat) (lv : table) : list (nat * rule) :=
  match lv with
  | [] => []
  | rs :: lv' => map (pair k) (filter keep rs) ++ kept_rules keep (S k) lv'
  end.

Lemma find_level_kept keep lv : forall k, find_level keep k lv = hd_error (kept_rules keep k lv).
Proof.
  induction lv as [|rs lv IH]; intros k; cbn [find_level kept_rules]; [reflexivity|]. rewrite IH.
  induction rs as [|r rs IHrs]; cbn [find_rule filter]; [reflexivity|]. destruct (keep r); [reflexivity|exact IHrs].
Qed.

Definition pre_keep (rej : rule -> bool) (r : rule) : bool := is_pre r && negb (rej r).
Definition post_keep (rej : rule -> bool) (r : rule) : bool := negb (is_pre r) && negb (rej r).

(** every level above [bound] holds excluded rules only ([None]: every level) *)
Fixpoint levels_stop (keep : rule -> bool) (bound : option nat) (k : nat) (lv : table) : bool :=
  match lv with
  | [] => true
  | rs :: lv' =>
    (match bound with Some b => (k <=? b)%nat | None => false end
     || match find_rule keep rs with None => true | Some _ => false end)
    && levels_stop keep bound (S k) lv'
  end.

Section Walk.
  Variable I : Type.
  Variable lx : lexer I.
  Variable rec : nat -> I -> pres aexpr I.
  Variable rej : rule -> bool.

  Section Pre.
    Variable s : I.
    Hypothesis rej_ok : forall k r, is_pre r = true -> rej r = true -> run_pre I lx rec k r s = PFail.

    Fixpoint try_pre (l : list (nat * rule)) : pres aexpr I :=
      match l with
      | [] => PFail
      | (k, r) :: l' => match run_pre I lx rec k r s with PFail => try_pre l' | x => x end
      end.

    Lemma try_pre_app l1 l2 : try_pre (l1 ++ l2) = match try_pre l1 with PFail => try_pre l2 | x => x end.
    Proof.
      induction l1 as [|[k r] l1 IH]; cbn [app try_pre]; [reflexivity|].
      destruct (run_pre I lx rec k r s); try reflexivity. exact IH.
    Qed.

    Theorem first_pre_kept lv : forall k, first_pre I lx rec k lv s = try_pre (kept_rules (pre_keep rej) k lv).
    Proof.
      induction lv as [|rs lv IH]; intros k; cbn [first_pre kept_rules]; [reflexivity|].
      rewrite try_pre_app, IH.
      assert (E : first_pre_level I lx rec k rs s = try_pre (map (pair k) (filter (pre_keep rej) rs))).
      { induction rs as [|r rs IHrs]; cbn [first_pre_level filter map]; [reflexivity|]. unfold pre_keep at 1.
        destruct (is_pre r) eqn:Ep; [|exact IHrs].
        destruct (rej r) eqn:Er; cbn [negb andb map try_pre]; [rewrite (rej_ok k r Ep Er)|]; rewrite IHrs; reflexivity. }
      rewrite E. reflexivity.
    Qed.

    Lemma first_pre_none lv k : find_level (pre_keep rej) k lv = None -> first_pre I lx rec k lv s = PFail.
    Proof.
      rewrite find_level_kept, first_pre_kept. destruct (kept_rules (pre_keep rej) k lv); [reflexivity|discriminate].
    Qed.

    Lemma first_pre_hit lv k' r e s' k : find_level (pre_keep rej) k lv = Some (k', r) ->
      run_pre I lx rec k' r s = PMatch e s' -> first_pre I lx rec k lv s = PMatch e s'.
    Proof.
      rewrite find_level_kept, first_pre_kept. destruct (kept_rules (pre_keep rej) k lv) as [|[k0 r0] l]; [discriminate|].
      intros H Hr. injection H as -> ->. cbn [try_pre]. rewrite Hr. reflexivity.
    Qed.
  End Pre.

  Section Post.
    Variable left : aexpr.
    Variable s : I.
    Hypothesis rej_ok : forall k r, rej r = true -> run_post I lx rec k r left s = PFail.

    Lemma first_post_level_none k rs : find_rule (post_keep rej) rs = None ->
      first_post_level I lx rec k rs left s = PFail.
    Proof.
      induction rs as [|r rs IH]; cbn [find_rule first_post_level]; [reflexivity|].
      unfold post_keep at 1. destruct (is_pre r) eqn:Ep; [exact IH|].
      destruct (rej r) eqn:Er; [|discriminate]. rewrite (rej_ok k r Er). exact IH.
    Qed.

    Lemma first_post_level_hit k rs r e s' : find_rule (post_keep rej) rs = Some r ->
      run_post I lx rec k r left s = PMatch e s' -> first_post_level I lx rec k rs left s = PMatch e s'.
    Proof.
      intros Hf Hr. induction rs as [|r0 rs IH]; cbn [find_rule first_post_level] in *; [discriminate|].
      unfold post_keep at 1 in Hf. destruct (is_pre r0) eqn:Ep; [exact (IH Hf)|].
      destruct (rej r0) eqn:Er; cbn [negb andb] in Hf.
      - rewrite (rej_ok k r0 Er). exact (IH Hf).
      - injection Hf as ->. rewrite Hr. reflexivity.
    Qed.

    (** the loop of [__infix_parse] ends: the levels from [m] upwards hold excluded rules only *)
    Lemma first_post_stop m bound lv : forall k, levels_stop (post_keep rej) bound k lv = true ->
      match bound with Some b => (b < m)%nat | None => True end ->
      first_post I lx rec m k lv left s = PFail.
    Proof.
      intros k H Hb. revert k H. induction lv as [|rs lv IH]; intros k; cbn [levels_stop first_post]; [reflexivity|].
      intros H. apply andb_true_iff in H as [H1 H2]. rewrite (IH _ H2).
      destruct (find_rule (post_keep rej) rs) eqn:E.
      - rewrite orb_false_r in H1. destruct bound as [b|]; [|discriminate].
        apply Nat.leb_le in H1. destruct (Nat.leb_spec m k); [lia|reflexivity].
      - rewrite (first_post_level_none k rs E). destruct (m <=? k)%nat; reflexivity.
    Qed.

    Lemma first_post_hit m lv k' r e s' : forall k, find_level (post_keep rej) k lv = Some (k', r) ->
      (m <= k')%nat -> run_post I lx rec k' r left s = PMatch e s' ->
      first_post I lx rec m k lv left s = PMatch e s'.
    Proof.
      intros k Hf Hm Hr. revert k Hf. induction lv as [|rs lv IH]; intros k; cbn [find_level first_post]; [discriminate|].
      destruct (find_rule (post_keep rej) rs) as [r0|] eqn:E.
      - intros Hf; injection Hf as -> ->. destruct (Nat.leb_spec m k'); [|lia].
        rewrite (first_post_level_hit _ _ _ _ _ E Hr). reflexivity.
      - rewrite (first_post_level_none k rs E). intros Hf. rewrite (IH _ Hf). destruct (m <=? k)%nat; reflexivity.
    Qed.
  End Post.
End Walk.

Arguments first_pre_kept {I lx rec rej s} rej_ok lv k.
Arguments first_pre_none {I lx rec rej s} rej_ok lv k.
Arguments first_pre_hit {I lx rec rej s} rej_ok {lv k' r e s'} k.
Arguments first_post_stop {I lx rec rej left s} rej_ok m bound lv k.
Arguments first_post_hit {I lx rec rej left s} rej_ok m {lv k' r e s'} k.

Ltac eval_kept :=
  match goal with
  | |- context [kept_rules ?keep ?k ?lv] =>
    let v := eval vm_compute in (kept_rules keep k lv) in change (kept_rules keep k lv) with v
  end.
