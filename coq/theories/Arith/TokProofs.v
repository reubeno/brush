(** The parse ∘ render round trip, at token level.

    [parse] (Arith/PegPrec.v) is run with the regenerated table [arith_table] over a token stream
    ([tok_lexer]), the idealisation of an input where tokens are separated by single blanks.

    Spec side: bash's operator table ([blevel], [right_assoc], expr.c) and the rendering
    relation [R]: [R q e ts tq] says that [ts] renders [e] at a position that requires
    precedence [q], with minimal parentheses from that table or any amount of redundant ones.

    Theorem [tparse_render]: [parse (render e) = e] for every [e] (no array subscripts) and every
    continuation that cannot extend the expression. *)
From Coq Require Import String.
From BV Require Import Base.Prelude Base.Codec Arith.Ast Arith.Lit Arith.PegPrec Arith.PegFacts gen.C07ArithTable.

Inductive tok := TNum (z : Z) | TId (x : str) | TOp (s : str).

Definition tok_lexer : lexer (list tok) := {|
  lx_size := @length tok;
  lx_empty := fun s => match s with [] => true | _ => false end;
  lx_ws := fun s => s;
  lx_tok := fun t s => match s with
                       | TOp t' :: s' => if str_eqb t t' then Some s' else None
                       | _ => None
                       end;
  lx_not := fun _ _ => true;
  lx_lvalue := fun _ s => match s with TId x :: s' => PMatch (x, None) s' | _ => PFail end;
  lx_number := fun s => match s with TNum z :: s' => Some (z, s') | _ => None end
|}.

Notation T := (list tok).
Definition tparse := parse T tok_lexer arith_table.
Notation tfirst_post := (first_post T tok_lexer).
Notation tloop := (infix_loop T tok_lexer arith_table).

(** ** bash's table (expr.c), numbered like the levels of [c_levels] and of [arith_table]:
    0 [,]; 1 assignments; 2 [?:]; 3–13 the binary operators ([blevel]); 14 [!] [~]; 15 unary [+] [-];
    16 [++x] [--x]; 17 [x++] [x--]; 18 literal, variable, parentheses.  19 is past the last level. *)
Definition blevel (o : binop) : nat :=
  match o with
  | Comma => 0 | LOr => 3 | LAnd => 4 | BOr => 5 | BXor => 6 | BAnd => 7 | Eq | Ne => 8
  | Lt | Gt | Le | Ge => 9 | Shl | Shr => 10 | Add | Sub => 11 | Mul | Mod | Div => 12 | Pow => 13
  end.
Definition right_assoc (o : binop) : bool := match o with Pow => true | _ => false end.
Definition bintok (o : binop) : str :=
  lit match o with
      | Comma => "," | LOr => "||" | LAnd => "&&" | BOr => "|" | BXor => "^" | BAnd => "&"
      | Eq => "==" | Ne => "!=" | Lt => "<" | Gt => ">" | Le => "<=" | Ge => ">=" | Shl => "<<"
      | Shr => ">>" | Add => "+" | Sub => "-" | Mul => "*" | Mod => "%" | Div => "/" | Pow => "**"
      end.
Definition untok (o : unop) : str :=
  lit match o with LNot => "!" | BNot => "~" | UPlus => "+" | UMinus => "-" end.
(** the level of a unary operator's rule in [arith_table]; brush parses the operand at that level.
    [RUn] renders the operand at 15 for all four: what stands unparenthesised at 15 is a unary
    operator or an atom, which a call at 14 parses just as well. *)
Definition unlevel (o : unop) : nat := match o with LNot | BNot => 14 | UPlus | UMinus => 15 end.
Definition has_assign (o : binop) : bool :=
  match o with Mul | Div | Mod | Add | Sub | Shl | Shr | BAnd | BOr | BXor => true | _ => false end.
Definition assigntok (o : binop) : str := bintok o ++ lit "=".
Definition LP := TOp (lit "(").
Definition RP := TOp (lit ")").
Definition QM := TOp (lit "?").
Definition COL := TOp (lit ":").

(** [tq]: the level from which a following operator would still be absorbed by the last operand
    of [e] (19 = nothing is absorbed) *)
Inductive R : nat -> aexpr -> T -> nat -> Prop :=
  | RParen q e ts tq0 : R 0 e ts tq0 -> R q e (LP :: ts ++ [RP]) 19
  | RLit q z : R q (ELit z) [TNum z] 19
  | RRef q x : R q (ERef x None) [TId x] 19
  | RPreInc q x : R q (EIncr PreInc x None) [TOp (lit "++"); TId x] 19
  | RPreDec q x : R q (EIncr PreDec x None) [TOp (lit "--"); TId x] 19
  | RPostInc q x : R q (EIncr PostInc x None) [TId x; TOp (lit "++")] 19
  | RPostDec q x : R q (EIncr PostDec x None) [TId x; TOp (lit "--")] 19
  | RUn q o a ts tq0 : (q <= 15)%nat -> R 15 a ts tq0 -> R q (EUn o a) (TOp (untok o) :: ts) (unlevel o)
  | RBinL q o a b tsa tsb tqa tqb : right_assoc o = false -> (q <= blevel o)%nat ->
      R (blevel o) a tsa tqa -> R (S (blevel o)) b tsb tqb ->
      R q (EBin o a b) (tsa ++ TOp (bintok o) :: tsb) (S (blevel o))
  | RBinR q o a b tsa tsb tqa tqb : right_assoc o = true -> (q <= blevel o)%nat ->
      R (S (blevel o)) a tsa tqa -> R (blevel o) b tsb tqb ->
      R q (EBin o a b) (tsa ++ TOp (bintok o) :: tsb) (blevel o)
  | RCond q c t f tsc tst tsf tqc tqt tqf : (q <= 2)%nat ->
      R 3 c tsc tqc -> R 0 t tst tqt -> R 2 f tsf tqf ->
      R q (ECond c t f) (tsc ++ QM :: tst ++ COL :: tsf) 2
  | RAssign q x rhs ts tq0 : (q <= 1)%nat -> R 1 rhs ts tq0 ->
      R q (EAssign x None rhs) (TId x :: TOp (lit "=") :: ts) 1
  | RBinAssign q o x rhs ts tq0 : has_assign o = true -> (q <= 1)%nat -> R 1 rhs ts tq0 ->
      R q (EBinAssign o x None rhs) (TId x :: TOp (assigntok o) :: ts) 1.

Lemma R_nonempty q e ts tq : R q e ts tq -> (1 <= length ts)%nat.
Proof.
  induction 1; cbn [length]; rewrite ?app_length; cbn [length]; lia.
Qed.

(** [tq] equals the level of the position only for the right-associative constructs *)
Lemma R_tail q e ts tq : R q e ts tq ->
  ((q <= tq)%nat \/ (14 <= tq)%nat) /\
  ((q < tq)%nat \/ tq = 1%nat \/ tq = 2%nat \/ tq = 13%nat \/ (14 <= tq)%nat).
Proof.
  destruct 1; try lia; destruct o; try discriminate; cbn in *; lia.
Qed.

(** tokens that may follow a complete expression *)
Inductive ftok := FRP | FCOL | FQM | FBin (o : binop).
Definition tok_of_f (f : ftok) : tok :=
  match f with FRP => RP | FCOL => COL | FQM => QM | FBin o => TOp (bintok o) end.
Definition flevel (f : ftok) : option nat :=
  match f with FRP | FCOL => None | FQM => Some 2%nat | FBin o => Some (blevel o) end.
(** [rest] cannot extend an expression parsed with minimum level [m] *)
Definition follow_ok (m : nat) (rest : T) : Prop :=
  rest = [] \/ exists f rest', rest = tok_of_f f :: rest' /\
                               match flevel f with Some p => (p < m)%nat | None => True end.

Lemma flevel_le f p : flevel f = Some p -> (p <= 13)%nat.
Proof. destruct f as [| | |o]; cbn; try congruence; intros H; injection H as <-; [lia|destruct o; cbn; lia]. Qed.

Lemma follow_ok_mono m m' rest : follow_ok m rest -> (m <= m' \/ 14 <= m')%nat -> follow_ok m' rest.
Proof.
  intros [->|(f & r & -> & Hf)] Hm; [left; reflexivity|].
  right. exists f, r. split; [reflexivity|].
  destruct (flevel f) as [p|] eqn:E; [|exact I]. apply flevel_le in E. lia.
Qed.

Definition rlevel (o : binop) : nat := if right_assoc o then blevel o else S (blevel o).
Definition llevel (o : binop) : nat := if right_assoc o then S (blevel o) else blevel o.

(** as the table has it at level [blevel o] *)
Definition bin_rule (o : binop) : rule :=
  mkRule (KInfix (negb (right_assoc o)) (right_assoc o)) [EWs; ETok (bintok o); EWs] (CBin o) [0; 1]%nat.
Definition cond_rule : rule :=
  mkRule (KInfix false true) [EWs; ETok [63%N]; EWs; EExpr; EWs; ETok [58%N]; EWs] CCond [0; 1; 2]%nat.

(** what [wf_chars] asks of names and literals, for any two tests; [R] itself excludes subscripts
    and the compound assignments that do not exist *)
Fixpoint lex_ok (okid : str -> Prop) (oknum : Z -> Prop) (e : aexpr) : Prop :=
  match e with
  | ELit z => oknum z
  | ERef x _ => okid x
  | EUn _ a => lex_ok okid oknum a
  | EBin _ a b => lex_ok okid oknum a /\ lex_ok okid oknum b
  | ECond c t f => lex_ok okid oknum c /\ lex_ok okid oknum t /\ lex_ok okid oknum f
  | EAssign x _ a => okid x /\ lex_ok okid oknum a
  | EIncr _ x _ => okid x
  | EBinAssign _ x _ a => okid x /\ lex_ok okid oknum a
  end.

Lemma follow_bin o m r : (blevel o < m)%nat -> follow_ok m (TOp (bintok o) :: r).
Proof. intros H. right. exists (FBin o), r. split; [reflexivity|exact H]. Qed.

(** The round trip, generic in the lexical level.  [enc ts] is the input that starts with the
    tokens [ts]; [cont ts] is what is left in front of [ts] after an operand has been parsed (for
    characters: a blank, then [enc ts]).  The facts [TF] say how the two phases of [parse] over
    the regenerated table react to the first token(s); they are proved for tokens below
    ([tok_facts]) and for characters in CharLex.v and CharProofs.v ([char_facts]). *)
Section Generic.
  Variable Inp : Type.
  Variable lx : lexer Inp.
  Variable enc cont : T -> Inp.
  Variable okid : str -> Prop.
  Variable oknum : Z -> Prop.
  Variable opok : str -> Prop.                       (* operator texts that do not start with a blank *)
  Variable rec_good : (nat -> Inp -> pres aexpr Inp) -> Prop.   (* what the facts need from the recursive parser *)

  (** the first token is lexically valid, so that [_] before it stops at it *)
  Definition first_ok (s : T) : Prop :=
    match s with
    | TNum z :: _ => oknum z
    | TId x :: _ => okid x
    | TOp o :: _ => opok o
    | [] => False
    end.

  Notation gpre := (first_pre Inp lx).
  Notation gpost := (first_post Inp lx).
  Notation gparse := (parse Inp lx arith_table).
  Notation gloop := (infix_loop Inp lx arith_table).
  Notation rec_t := (nat -> Inp -> pres aexpr Inp).

  Record table_facts : Prop := {
    tf_size : forall r, (length r <= lx_size lx (cont r))%nat;
    tf_num : forall (rec : rec_t) z r, oknum z -> gpre rec 0 arith_table (enc (TNum z :: r)) = PMatch (ELit z) (cont r);
    tf_opok : forall o, In o [lit "("; lit "++"; lit "--"; lit "!"; lit "~"; lit "+"; lit "-"] -> opok o;
    tf_rec_good : forall f, (1 <= f)%nat -> rec_good (parse Inp lx arith_table f);
    (* after a variable only what may follow a whole expression: not [=], [op=], [++], [--] *)
    tf_ref : forall (rec : rec_t) x r, rec_good rec -> okid x -> (r = [] \/ exists f r', r = tok_of_f f :: r') ->
      gpre rec 0 arith_table (enc (TId x :: r)) = PMatch (ERef x None) (cont r);
    tf_preincr : forall (rec : rec_t) (inc : bool) x r, okid x ->
      gpre rec 0 arith_table (enc (TOp (if inc then lit "++" else lit "--") :: TId x :: r))
      = PMatch (EIncr (if inc then PreInc else PreDec) x None) (cont r);
    tf_postincr : forall (rec : rec_t) (inc : bool) x r, rec_good rec -> okid x ->
      gpre rec 0 arith_table (enc (TId x :: TOp (if inc then lit "++" else lit "--") :: r))
      = PMatch (EIncr (if inc then PostInc else PostDec) x None) (cont r);
    tf_un : forall (rec : rec_t) o s a s', first_ok s -> rec (unlevel o) (enc s) = PMatch a s' ->
      gpre rec 0 arith_table (enc (TOp (untok o) :: s)) = PMatch (EUn o a) s';
    tf_assign : forall (rec : rec_t) x s rhs s', rec_good rec -> okid x -> first_ok s -> rec 1%nat (enc s) = PMatch rhs s' ->
      gpre rec 0 arith_table (enc (TId x :: TOp (lit "=") :: s)) = PMatch (EAssign x None rhs) s';
    tf_binassign : forall (rec : rec_t) o x s rhs s', rec_good rec -> has_assign o = true -> okid x -> first_ok s ->
      rec 1%nat (enc s) = PMatch rhs s' ->
      gpre rec 0 arith_table (enc (TId x :: TOp (assigntok o) :: s)) = PMatch (EBinAssign o x None rhs) s';
    tf_paren : forall (rec : rec_t) s e s', first_ok s -> rec 0%nat (enc s) = PMatch e (cont (RP :: s')) ->
      gpre rec 0 arith_table (enc (LP :: s)) = PMatch e (cont s');
    tf_bin : forall (rec : rec_t) m left o s b s', rec_good rec -> (m <= blevel o)%nat -> first_ok s ->
      rec (rlevel o) (enc s) = PMatch b s' ->
      gpost rec m 0 arith_table left (cont (TOp (bintok o) :: s)) = PMatch (EBin o left b) s';
    tf_cond : forall (rec : rec_t) m left s t s1 f s2, rec_good rec -> (m <= 2)%nat -> first_ok s -> first_ok s1 ->
      rec 0%nat (enc s) = PMatch t (cont (COL :: s1)) -> rec 2%nat (enc s1) = PMatch f s2 ->
      gpost rec m 0 arith_table left (cont (QM :: s)) = PMatch (ECond left t f) s2;
    tf_stop : forall (rec : rec_t) m left r, rec_good rec -> follow_ok m r -> gpost rec m 0 arith_table left (cont r) = PFail
  }.

  Hypothesis TF : table_facts.

  Lemma gparse_S f m s : gparse (S f) m s =
    match gpre (gparse f) 0 arith_table s with
    | PMatch e rest => gloop (gparse f) (S (lx_size lx rest)) m e rest
    | x => x
    end.
  Proof. reflexivity. Qed.

  Lemma gloop_stop rec n m e rest : rec_good rec -> follow_ok m rest -> (1 <= n)%nat -> gloop rec n m e (cont rest) = PMatch e (cont rest).
  Proof.
    intros Hg Hf Hn. destruct n as [|n]; [lia|]. cbn [infix_loop]. rewrite (tf_stop TF) by assumption. reflexivity.
  Qed.

  Lemma R_first_ok q e ts tq : R q e ts tq -> lex_ok okid oknum e -> forall rest, first_ok (ts ++ rest).
  Proof.
    induction 1; intros Hok rest; cbn [lex_ok] in Hok; cbn [app first_ok]; try assumption;
      try (apply (tf_opok TF); cbn; tauto).
    - destruct o; apply (tf_opok TF); cbn; tauto.
    - rewrite <- app_assoc. apply IHR1. tauto.
    - rewrite <- app_assoc. apply IHR1. tauto.
    - rewrite <- app_assoc. apply IHR1. tauto.
    - tauto.
    - tauto.
  Qed.

  (** A call at a level [m <= q], on the rendering [ts] of [e] followed by a [rest] that the last
      operand of [e] does not absorb ([follow_ok tq rest]), reaches the loop of [__infix_parse]
      with [e] as left operand in front of [rest] and enough turns left to go through [rest].
      The loop is left open because what it does next depends on [m]: it takes a binary operator
      of [rest] ([L_bin]), or stops and the call returns [e] ([Lstmt_returns]). *)
  Definition Lstmt (q : nat) (e : aexpr) (ts : T) (tq : nat) : Prop :=
    forall m rest f, (m <= q)%nat -> follow_ok tq rest -> (length (ts ++ rest) <= f)%nat ->
    exists n, (S (length rest) <= n)%nat /\
              gparse (S f) m (enc (ts ++ rest)) = gloop (gparse f) n m e (cont rest).

  Lemma Lstmt_returns q e ts tq : R q e ts tq -> Lstmt q e ts tq ->
    forall m rest fuel, (m <= q)%nat -> follow_ok m rest -> (length (ts ++ rest) < fuel)%nat ->
    gparse fuel m (enc (ts ++ rest)) = PMatch e (cont rest).
  Proof.
    intros HR HL m rest fuel Hm Hf Hlen. destruct fuel as [|f]; [lia|].
    pose proof (R_nonempty _ _ _ _ HR) as Hne. rewrite app_length in Hlen.
    destruct (HL m rest f Hm) as (n & Hn & ->); [|rewrite app_length; lia|].
    - apply follow_ok_mono with (m := m); [exact Hf|]. pose proof (R_tail _ _ _ _ HR). lia.
    - apply gloop_stop; [apply (tf_rec_good TF); lia|exact Hf|lia].
  Qed.

  Lemma app_nonempty (a b : T) : (1 <= length a)%nat -> a ++ b <> [].
  Proof. destruct a; cbn; [lia|discriminate]. Qed.

  Lemma Lstmt_pre q e ts tq :
    (forall rest f, follow_ok tq rest -> (length (ts ++ rest) <= f)%nat ->
       gpre (gparse f) 0 arith_table (enc (ts ++ rest)) = PMatch e (cont rest)) ->
    Lstmt q e ts tq.
  Proof.
    intros H m rest f _ Hfol Hlen. exists (S (lx_size lx (cont rest))).
    split; [pose proof (tf_size TF rest); lia|]. rewrite gparse_S, (H rest f Hfol Hlen). reflexivity.
  Qed.

  Lemma L_bin q o a b tsa tsb tqa tqb :
    (q <= blevel o)%nat -> R (llevel o) a tsa tqa -> Lstmt (llevel o) a tsa tqa ->
    R (rlevel o) b tsb tqb -> Lstmt (rlevel o) b tsb tqb -> lex_ok okid oknum b ->
    Lstmt q (EBin o a b) (tsa ++ TOp (bintok o) :: tsb) (rlevel o).
  Proof.
    intros Hq HRa La HRb Lb Hokb m rest fu Hm Hfol Hlen.
    assert (Htq : (blevel o <= llevel o /\ blevel o < tqa)%nat).
    { pose proof (R_tail _ _ _ _ HRa) as H. unfold llevel in *. destruct o; cbn [blevel right_assoc] in *; lia. }
    pose proof (R_nonempty _ _ _ _ HRa) as Hna.
    rewrite <- app_assoc in *. cbn [app] in *.
    destruct (La m (TOp (bintok o) :: tsb ++ rest) fu) as (n & Hn & ->);
      [lia|apply follow_bin; lia|exact Hlen|].
    pose proof (R_nonempty _ _ _ _ HRb) as Hnb.
    rewrite app_length in Hlen. cbn [length] in Hlen, Hn. rewrite app_length in Hlen, Hn.
    destruct n as [|n]; [lia|]. exists n. split; [lia|]. cbn [infix_loop].
    rewrite (tf_bin TF (gparse fu) m a o (tsb ++ rest) b (cont rest));
      [reflexivity|apply (tf_rec_good TF); lia|lia|apply (R_first_ok _ _ _ _ HRb Hokb)|].
    apply (Lstmt_returns _ _ _ _ HRb Lb); [lia|exact Hfol|rewrite app_length; lia].
  Qed.

  Theorem render_L : forall q e ts tq, R q e ts tq -> lex_ok okid oknum e -> Lstmt q e ts tq.
  Proof.
    induction 1 as [q e ts tq0 HR IH | q z | q x | q x | q x | q x | q x
                   | q o a ts tq0 Hq HR IH
                   | q o a b tsa tsb tqa tqb Hassoc Hq HRa IHa HRb IHb
                   | q o a b tsa tsb tqa tqb Hassoc Hq HRa IHa HRb IHb
                   | q c t fe tsc tst tsf tqc tqt tqf Hq HRc IHc HRt IHt HRf IHf
                   | q x rhs ts tq0 Hq HR IH
                   | q o x rhs ts tq0 Ho Hq HR IH];
      intros Hok; cbn [lex_ok] in Hok.
    - (* parentheses *)
      apply Lstmt_pre. intros rest fu Hfol Hlen. pose proof (R_nonempty _ _ _ _ HR) as Hne.
      cbn [app] in *. rewrite <- app_assoc in *. cbn [app length] in *.
      apply (tf_paren TF); [apply (R_first_ok _ _ _ _ HR Hok)|].
      apply (Lstmt_returns _ _ _ _ HR (IH Hok)); [lia| |lia].
      right. exists FRP, rest. split; [reflexivity|exact I].
    - apply Lstmt_pre. intros rest fu Hfol Hlen. apply (tf_num TF). exact Hok.
    - apply Lstmt_pre. intros rest fu Hfol Hlen. cbn [app length] in *.
      apply (tf_ref TF); [apply (tf_rec_good TF); lia|exact Hok|].
      destruct Hfol as [->|(f0 & r & -> & _)]; [left; reflexivity|right; exists f0, r; reflexivity].
    - apply Lstmt_pre. intros rest fu Hfol Hlen. exact (tf_preincr TF _ true x rest Hok).
    - apply Lstmt_pre. intros rest fu Hfol Hlen. exact (tf_preincr TF _ false x rest Hok).
    - apply Lstmt_pre. intros rest fu Hfol Hlen. cbn [app length] in *.
      apply (tf_postincr TF _ true); [apply (tf_rec_good TF); lia|exact Hok].
    - apply Lstmt_pre. intros rest fu Hfol Hlen. cbn [app length] in *.
      apply (tf_postincr TF _ false); [apply (tf_rec_good TF); lia|exact Hok].
    - (* unary *)
      apply Lstmt_pre. intros rest fu Hfol Hlen. pose proof (R_nonempty _ _ _ _ HR) as Hne. cbn [app length] in *.
      apply (tf_un TF); [apply (R_first_ok _ _ _ _ HR Hok)|].
      apply (Lstmt_returns _ _ _ _ HR (IH Hok)); [destruct o; cbn; lia|exact Hfol|lia].
    - (* left associative binary operator *)
      destruct Hok as [Hoka Hokb]. pose proof (L_bin q o a b tsa tsb tqa tqb Hq) as H.
      unfold llevel, rlevel in H. rewrite Hassoc in H. exact (H HRa (IHa Hoka) HRb (IHb Hokb) Hokb).
    - (* right associative binary operator *)
      destruct Hok as [Hoka Hokb]. pose proof (L_bin q o a b tsa tsb tqa tqb Hq) as H.
      unfold llevel, rlevel in H. rewrite Hassoc in H. exact (H HRa (IHa Hoka) HRb (IHb Hokb) Hokb).
    - (* conditional *)
      destruct Hok as (Hokc & Hokt & Hokf). intros m rest fu Hm Hfol Hlen.
      rewrite <- app_assoc in *. cbn [app] in *. rewrite <- app_assoc in *. cbn [app] in *.
      destruct (IHc Hokc m (QM :: tst ++ COL :: tsf ++ rest) fu) as (n & Hn & ->); [lia| |exact Hlen|].
      { right. exists FQM, (tst ++ COL :: tsf ++ rest). split; [reflexivity|]. cbn.
        pose proof (R_tail _ _ _ _ HRc). lia. }
      pose proof (R_nonempty _ _ _ _ HRc) as Hnc. pose proof (R_nonempty _ _ _ _ HRt) as Hnt.
      pose proof (R_nonempty _ _ _ _ HRf) as Hnf.
      repeat first [rewrite app_length in Hlen | progress cbn [length] in Hlen].
      repeat first [rewrite app_length in Hn | progress cbn [length] in Hn].
      destruct n as [|n]; [lia|]. exists n. split; [lia|]. cbn [infix_loop].
      rewrite (tf_cond TF (gparse fu) m c (tst ++ COL :: tsf ++ rest) t (tsf ++ rest) fe (cont rest));
        [reflexivity|apply (tf_rec_good TF); lia|lia|apply (R_first_ok _ _ _ _ HRt Hokt)|apply (R_first_ok _ _ _ _ HRf Hokf)| |].
      + apply (Lstmt_returns _ _ _ _ HRt (IHt Hokt)); [lia| |rewrite app_length; cbn [length]; rewrite app_length; lia].
        right. exists FCOL, (tsf ++ rest). split; [reflexivity|exact I].
      + apply (Lstmt_returns _ _ _ _ HRf (IHf Hokf)); [lia|exact Hfol|rewrite app_length; lia].
    - (* assignment *)
      destruct Hok as [Hokx Hokr].
      apply Lstmt_pre. intros rest fu Hfol Hlen. pose proof (R_nonempty _ _ _ _ HR) as Hne. cbn [app length] in *.
      apply (tf_assign TF); [apply (tf_rec_good TF); lia|exact Hokx|apply (R_first_ok _ _ _ _ HR Hokr)|].
      apply (Lstmt_returns _ _ _ _ HR (IH Hokr)); [lia|exact Hfol|lia].
    - destruct Hok as [Hokx Hokr].
      apply Lstmt_pre. intros rest fu Hfol Hlen. pose proof (R_nonempty _ _ _ _ HR) as Hne. cbn [app length] in *.
      apply (tf_binassign TF); [apply (tf_rec_good TF); lia|exact Ho|exact Hokx|apply (R_first_ok _ _ _ _ HR Hokr)|].
      apply (Lstmt_returns _ _ _ _ HR (IH Hokr)); [lia|exact Hfol|lia].
  Qed.

  Theorem gparse_render : forall q e ts tq, R q e ts tq -> lex_ok okid oknum e ->
    forall m rest fuel, (m <= q)%nat -> follow_ok m rest -> (length (ts ++ rest) < fuel)%nat ->
    gparse fuel m (enc (ts ++ rest)) = PMatch e (cont rest).
  Proof. intros q e ts tq HR Hok. apply (Lstmt_returns _ _ _ _ HR). apply render_L; assumption. Qed.
End Generic.
Arguments R_first_ok {Inp lx enc cont okid oknum opok rec_good} TF {q e ts tq}.
Arguments gparse_render {Inp lx enc cont okid oknum opok rec_good} TF {q e ts tq}.

Definition rule_head_tok (r : rule) : option str :=
  match rels r with EWs :: ETok t :: _ => Some t | ETok t :: _ => Some t | _ => None end.
Definition markers_ok (r : rule) : bool := match rk r with KInfix la ra => xorb la ra | _ => true end.
Definition rule_rejects (ot : option tok) (r : rule) : bool :=
  markers_ok r && match rule_head_tok r, ot with
                  | Some a, Some (TOp b) => negb (str_eqb a b)
                  | Some _, _ => true
                  | None, _ => false
                  end.

Lemma lx_tok_reject a s : match hd_error s with Some (TOp b) => negb (str_eqb a b) | _ => true end = true ->
  lx_tok tok_lexer a s = None.
Proof.
  destruct s as [|[z|x|b] s]; cbn; try reflexivity.
  destruct (str_eqb a b); [discriminate|reflexivity].
Qed.

Lemma run_elems_reject rec r caps s : (match rule_head_tok r, hd_error s with
                               | Some a, Some (TOp b) => negb (str_eqb a b)
                               | Some _, _ => true
                               | None, _ => false
                               end) = true ->
  run_elems T tok_lexer rec (rels r) caps s = PFail.
Proof.
  unfold rule_head_tok. destruct (rels r) as [|[| t | | | |] [|[| t2 | | | |] els]]; try discriminate; intros H;
    cbn [run_elems lx_ws tok_lexer]; try (rewrite lx_tok_reject; [reflexivity|]);
    try (destruct (hd_error s) as [[]|]; assumption).
Qed.

Lemma rule_rejects_ok rec left s k r : rule_rejects (hd_error s) r = true ->
  run_post T tok_lexer rec k r left s = PFail.
Proof.
  unfold rule_rejects. intros H. apply andb_true_iff in H as [Hm Hh].
  unfold run_post. unfold markers_ok in Hm.
  destruct (rk r) as [la ra| | |]; try reflexivity.
  - destruct la, ra; try discriminate; rewrite run_elems_reject by exact Hh; reflexivity.
  - rewrite run_elems_reject by exact Hh. reflexivity.
Qed.

Lemma post_stop rec m left rest : follow_ok m rest -> tfirst_post rec m 0 arith_table left rest = PFail.
Proof.
  intros [->|(f & r & -> & Hf)].
  - apply (first_post_stop (rule_rejects_ok rec left []) m None); [reflexivity|exact I].
  - apply (first_post_stop (rule_rejects_ok rec left (tok_of_f f :: r)) m (flevel f)).
    + destruct f as [| | |o]; [| | |destruct o]; reflexivity.
    + exact Hf.
Qed.

Lemma loop_stop rec n m e rest : follow_ok m rest -> (1 <= n)%nat -> tloop rec n m e rest = PMatch e rest.
Proof.
  intros Hf Hn. destruct n as [|n]; [lia|]. cbn [infix_loop]. rewrite post_stop by exact Hf. reflexivity.
Qed.

Lemma post_bin rec m left o s b s' : (m <= blevel o)%nat -> rec (rlevel o) s = PMatch b s' ->
  tfirst_post rec m 0 arith_table left (TOp (bintok o) :: s) = PMatch (EBin o left b) s'.
Proof.
  intros Hm Hrec.
  apply (first_post_hit (rule_rejects_ok rec left (TOp (bintok o) :: s)) m (k' := blevel o) (r := bin_rule o) 0%nat);
    [destruct o; reflexivity|exact Hm|].
  unfold run_post, bin_rule, rlevel in *. cbn [rk rels run_elems lx_ws lx_tok tok_lexer].
  rewrite str_eqb_refl. destruct (right_assoc o); cbn [negb]; rewrite Hrec; reflexivity.
Qed.

Lemma post_cond rec m left s t s1 f s2 : (m <= 2)%nat -> rec 0%nat s = PMatch t (COL :: s1) ->
  rec 2%nat s1 = PMatch f s2 ->
  tfirst_post rec m 0 arith_table left (QM :: s) = PMatch (ECond left t f) s2.
Proof.
  intros Hm Ht Hf.
  apply (first_post_hit (rule_rejects_ok rec left (QM :: s)) m (k' := 2%nat) (r := cond_rule) 0%nat);
    [reflexivity|exact Hm|].
  cbn. rewrite Ht. cbn. rewrite Hf. reflexivity.
Qed.

Lemma lex_ok_true e : lex_ok (fun _ => True) (fun _ => True) e.
Proof.
  induction e using aexpr_ind'; cbn; auto.
Qed.

Lemma tok_facts : table_facts T tok_lexer (fun s => s) (fun s => s) (fun _ => True) (fun _ => True)
                                (fun _ => True) (fun _ => True).
Proof.
  constructor.
  - intros r. cbn. lia.
  - intros. reflexivity.
  - intros; exact I.
  - intros; exact I.
  - intros rec x r _ _ [->|(f & r' & ->)]; [reflexivity|].
    destruct f as [| | |o]; [| | |destruct o]; reflexivity.
  - intros rec []; reflexivity.
  - intros rec []; reflexivity.
  - intros rec o s a s' _ H. destruct o; cbn in *; rewrite H; reflexivity.
  - intros rec x s rhs s' _ _ _ H. cbn in *. rewrite H. reflexivity.
  - intros rec o x s rhs s' _ Ho _ _ H. cbv beta in H. destruct o; try discriminate; lazy; rewrite H; reflexivity.
  - intros rec s e s' _ H. cbn in *. rewrite H. reflexivity.
  - intros rec m left o s b s' _ Hm _ H. apply post_bin; assumption.
  - intros rec m left s t s1 f s2 _ Hm _ _ Ht Hf. eapply post_cond; eassumption.
  - intros. apply post_stop. assumption.
Qed.

Theorem tparse_render : forall q e ts tq, R q e ts tq ->
  forall m rest fuel, (m <= q)%nat -> follow_ok m rest -> (length (ts ++ rest) < fuel)%nat ->
  tparse fuel m (ts ++ rest) = PMatch e rest.
Proof.
  intros q e ts tq HR. apply (gparse_render tok_facts HR).
  apply lex_ok_true.
Qed.

Theorem tparse_full_render : forall e ts tq, R 0 e ts tq ->
  parse_full T tok_lexer arith_table false ts = PMatch e [].
Proof.
  intros e ts tq HR. unfold parse_full. cbn [lx_empty lx_ws lx_size tok_lexer].
  pose proof (R_nonempty _ _ _ _ HR) as Hn. destruct ts as [|t0 ts0] eqn:Ets; [cbn in Hn; lia|].
  rewrite <- Ets in *. fold tparse.
  pose proof (tparse_render _ _ _ _ HR 0%nat [] (S (length ts)) (le_n _) (or_introl eq_refl)) as H.
  rewrite app_nil_r in H. rewrite H by lia. reflexivity.
Qed.

(** the side condition on the continuation is necessary *)
Example follow_needed :
  tparse 10 0 [TNum 1; TOp (lit "+"); TNum 2; TOp (lit "*"); TNum 3]
  = PMatch (EBin Add (ELit 1) (EBin Mul (ELit 2) (ELit 3))) [].
Proof. reflexivity. Qed.

Definition elevel (e : aexpr) : nat :=
  match e with
  | EBin o _ _ => blevel o
  | ECond _ _ _ => 2
  | EAssign _ _ _ | EBinAssign _ _ _ _ => 1
  | EUn _ _ => 15
  | _ => 19
  end.

Fixpoint render_at (q : nat) (e : aexpr) : T :=
  let body :=
    match e with
    | ELit z => [TNum z]
    | ERef x _ => [TId x]
    | EIncr PreInc x _ => [TOp (lit "++"); TId x]
    | EIncr PreDec x _ => [TOp (lit "--"); TId x]
    | EIncr PostInc x _ => [TId x; TOp (lit "++")]
    | EIncr PostDec x _ => [TId x; TOp (lit "--")]
    | EUn o a => TOp (untok o) :: render_at 15 a
    | EBin o a b =>
      if right_assoc o then render_at (S (blevel o)) a ++ TOp (bintok o) :: render_at (blevel o) b
      else render_at (blevel o) a ++ TOp (bintok o) :: render_at (S (blevel o)) b
    | ECond c t f => render_at 3 c ++ QM :: render_at 0 t ++ COL :: render_at 2 f
    | EAssign x _ rhs => TId x :: TOp (lit "=") :: render_at 1 rhs
    | EBinAssign o x _ rhs => TId x :: TOp (assigntok o) :: render_at 1 rhs
    end in
  if (q <=? elevel e)%nat then body else LP :: body ++ [RP].

Fixpoint wf (e : aexpr) : Prop :=
  match e with
  | ELit _ => True
  | ERef _ i => i = None
  | EUn _ a => wf a
  | EBin _ a b => wf a /\ wf b
  | ECond c t f => wf c /\ wf t /\ wf f
  | EAssign _ i a => i = None /\ wf a
  | EIncr _ _ i => i = None
  | EBinAssign o _ i a => i = None /\ has_assign o = true /\ wf a
  end.

(** a constructor of [R] other than [RParen] applies up to the level of its operator *)
Lemma R_paren_or q lvl e ts tq : (forall q', (q' <= lvl)%nat -> R q' e ts tq) ->
  exists tq', R q e (if (q <=? lvl)%nat then ts else LP :: ts ++ [RP]) tq'.
Proof.
  intros H. destruct (Nat.leb_spec q lvl); eexists; [apply H; assumption|].
  eapply RParen. apply (H 0%nat). lia.
Qed.

Lemma render_at_R : forall e, wf e -> forall q, exists tq, R q e (render_at q e) tq.
Proof.
  induction e as [z|x i Hi|o a IHa|o a b IHa IHb|c t f IHc IHt IHf|x i rhs Hi IH|o x i Hi|o x i rhs Hi IH] using aexpr_ind';
    intros Hwf q; cbn [wf] in Hwf; cbn [render_at elevel].
  - eapply R_paren_or. intros q' _. apply RLit.
  - subst i. eapply R_paren_or. intros q' _. apply RRef.
  - destruct (IHa Hwf 15%nat) as (tqa & Ha). eapply R_paren_or. intros q' Hq'. eapply RUn; eassumption.
  - destruct Hwf as [Hwa Hwb]. destruct (right_assoc o) eqn:Eo.
    + destruct (IHa Hwa (S (blevel o))) as (tqa & Ha). destruct (IHb Hwb (blevel o)) as (tqb & Hb).
      eapply R_paren_or. intros q' Hq'. eapply RBinR; eassumption.
    + destruct (IHa Hwa (blevel o)) as (tqa & Ha). destruct (IHb Hwb (S (blevel o))) as (tqb & Hb).
      eapply R_paren_or. intros q' Hq'. eapply RBinL; eassumption.
  - destruct Hwf as (Hwc & Hwt & Hwf).
    destruct (IHc Hwc 3%nat) as (tqc & Hc). destruct (IHt Hwt 0%nat) as (tqt & Ht).
    destruct (IHf Hwf 2%nat) as (tqf & Hf).
    eapply R_paren_or. intros q' Hq'. eapply RCond; eassumption.
  - destruct Hwf as (-> & Hwr). destruct (IH Hwr 1%nat) as (tqr & Hr).
    eapply R_paren_or. intros q' Hq'. eapply RAssign; eassumption.
  - subst i. destruct o; eapply R_paren_or; intros q' _; constructor.
  - destruct Hwf as (-> & Ho & Hwr). destruct (IH Hwr 1%nat) as (tqr & Hr).
    eapply R_paren_or. intros q' Hq'. eapply RBinAssign; eassumption.
Qed.

(** minimal parentheses from bash's table *)
Theorem tparse_render_min : forall e, wf e ->
  parse_full T tok_lexer arith_table false (render_at 0 e) = PMatch e [].
Proof.
  intros e Hwf. destruct (render_at_R e Hwf 0%nat) as (tq & HR). eapply tparse_full_render. exact HR.
Qed.

(** The character-level statement (proved in Arith/CharProofs.v, [parse_render_char]).  On a
    one-blank rendering the character-level primitives act like [tok_lexer], with one difference:
    an operator literal that is a proper prefix of the next token matches, and the rule fails
    later (at its right operand, or on its look-ahead guard).  [entry_c07_roundtrip] evaluates
    the same statement on every run next to the real parser. *)
Definition show_tok (t : tok) : str :=
  match t with TNum z => show_Z z | TId x => x | TOp s => s end.
Fixpoint show_toks (ts : T) : str :=
  match ts with
  | [] => []
  | [t] => show_tok t
  | t :: ts' => show_tok t ++ 32%N :: show_toks ts'
  end.

Definition ident_ok (x : str) : Prop := variable_name arith_lex x = Some (x, []).
Fixpoint wf_chars (e : aexpr) : Prop :=
  match e with
  | ELit z => 0 <= z < 9223372036854775808
  | ERef x i => i = None /\ ident_ok x
  | EUn _ a => wf_chars a
  | EBin _ a b => wf_chars a /\ wf_chars b
  | ECond c t f => wf_chars c /\ wf_chars t /\ wf_chars f
  | EAssign x i a => i = None /\ ident_ok x /\ wf_chars a
  | EIncr _ x i => i = None /\ ident_ok x
  | EBinAssign o x i a => i = None /\ ident_ok x /\ has_assign o = true /\ wf_chars a
  end.

Definition parse_render_stmt : Prop :=
  forall e ts tq, R 0 e ts tq -> wf_chars e ->
  parse_opt str (char_lexer arith_lex) arith_table (blank_zero arith_lex) (show_toks ts) = Some e.

(** executable instance of the statement for the minimal rendering (used by Entry.v) *)
Definition roundtrip_check (e : aexpr) : bool :=
  match parse_opt str (char_lexer arith_lex) arith_table (blank_zero arith_lex) (show_toks (render_at 0 e)) with
  | Some e' => str_eqb (show_ast e') (show_ast e)
  | None => false
  end.

(** one tree with every operator of the grammar *)
Definition ex_all_ops : aexpr :=
  let v (c : N) := ERef [c] None in
  let n := ELit in
  EBin Comma
    (EAssign [97%N] None
      (ECond (EBin LOr (EBin LAnd (v 98%N) (EBin BOr (EBin BXor (EBin BAnd (EBin Eq (n 1) (EBin Ne (n 2) (n 3))) (v 99%N)) (n 4)) (n 5))) (EUn LNot (v 100%N)))
             (EBin Lt (EBin Gt (EBin Le (EBin Ge (EBin Shl (n 6) (EBin Shr (n 7) (n 1))) (n 8)) (n 9)) (n 10)) (EBin Add (EBin Sub (n 11) (EBin Mul (EBin Mod (EBin Div (n 12) (n 5)) (n 7)) (EBin Pow (EUn UMinus (n 2)) (EBin Pow (n 3) (n 2))))) (EUn BNot (EUn UPlus (EIncr PostInc [120%N] None)))))
             (EBin Sub (EIncr PreDec [121%N] None) (EUn UMinus (EIncr PostDec [122%N] None)))))
    (EBin Comma
      (EBinAssign Mul [120%N] None (EBinAssign Div [120%N] None (EBinAssign Mod [120%N] None (EBinAssign Add [120%N] None (EBinAssign Sub [120%N] None
        (EBinAssign Shl [120%N] None (EBinAssign Shr [120%N] None (EBinAssign BAnd [120%N] None (EBinAssign BOr [120%N] None (EBinAssign BXor [120%N] None
          (EBin Mul (EBin Add (n 1) (n 2)) (EIncr PreInc [119%N] None))))))))))))
      (EBin Sub (EBin Sub (n 3) (n 2)) (EBin Sub (n 1) (EUn UMinus (n 1))))).

Example parse_render_instance :
  wf ex_all_ops /\ roundtrip_check ex_all_ops = true /\
  parse_full T tok_lexer arith_table false (render_at 0 ex_all_ops) = PMatch ex_all_ops [].
Proof. split; [cbn; tauto|]. split; vm_compute; reflexivity. Qed.
