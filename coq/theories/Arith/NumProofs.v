(** What brush's parser makes of the decimal rendering of an integer (the strings the
    assignment operators store): nothing, a literal, or a negated literal.  This discharges the
    hypothesis of [EvalProofs.deref_depth_bound] for the real parser: evaluation terminates. *)
From BV Require Import Base.Prelude Base.Decimal Arith.Wrap64 Arith.Ast Arith.Lit Arith.PegPrec
  gen.C07ArithTable Arith.PegFacts Arith.Parse Arith.Eval Arith.EvalProofs Arith.TokProofs Arith.CharLex Arith.CharProofs.

Definition lead19 (d : N) : Prop := (49 <= d <= 57)%N.

Lemma digits_all (d : N) (ds : list N) : lead19 d -> all_digits ds -> all_digits (d :: ds).
Proof.
  intros Hd Ha. constructor; [exact (lead_is_digit d Hd)|exact Ha].
Qed.

Lemma literal_digits_end (d : char) (ds : str) : lead19 d -> all_digits ds ->
  exists o, literal_number arith_lex (d :: ds) = match o with Some w => Some (w, []) | None => None end.
Proof.
  intros Hd Ha. eexists. rewrite <- (app_nil_r ds) at 1. exact (literal_number_dec d ds [] Hd Ha I).
Qed.

Lemma lead19_skip_ws (d : char) (ds : str) : lead19 d -> skip_ws arith_lex (d :: ds) = d :: ds.
Proof. intros Hd. apply skip_ws_nonws. unfold lead19 in Hd. class_solve. Qed.

Lemma parse_digits_end f (d : char) (ds : str) : (1 <= f)%nat -> lead19 d -> all_digits ds ->
  (exists w, forall m, parse str CL arith_table (S f) m (d :: ds) = PMatch (ELit w) []) \/
  (forall m, parse str CL arith_table (S f) m (d :: ds) = PFail).
Proof.
  intros Hf Hd Ha. destruct (literal_digits_end d ds Hd Ha) as (o & Hl).
  assert (Hcls : in_class digit_class d = true) by (unfold digit_class, lead19 in *; class_solve).
  (* of the rules a digit can start only the number atom is left *)
  assert (K : forall rec, cfirst_pre rec 0 arith_table (d :: ds) =
                          match o with Some w => PMatch (ELit w) [] | None => PFail end).
  { intros rec. rewrite (first_pre_kept (prule_rejects_ok rec _ d ds Hcls)). eval_kept.
    cbn [try_pre]. unfold run_pre. cbn [rk rels run_elems lx_number char_lexer]. rewrite Hl.
    destruct o; reflexivity. }
  destruct o as [w|]; [left; exists w|right]; intros m; cbn [parse]; rewrite K; [|reflexivity].
  cbn [lx_size char_lexer length infix_loop]. rewrite cpost_nil by (apply rec_good_parse; exact Hf). reflexivity.
Qed.

Lemma arith_parse_digits (d : char) (ds : str) : lead19 d -> all_digits ds ->
  (exists w, arith_parse (d :: ds) = Some (ELit w)) \/ arith_parse (d :: ds) = None.
Proof.
  intros Hd Ha. unfold arith_parse, parse_opt, parse_full.
  pose proof (lead19_skip_ws d ds Hd) as Hws.
  cbn [lx_empty lx_ws lx_size char_lexer blank_zero arith_lex]. rewrite Hws. cbn [length].
  destruct (parse_digits_end (S (length ds)) d ds ltac:(lia) Hd Ha) as [(w & ->)| ->];
    [left; exists w; reflexivity|right; reflexivity].
Qed.

Lemma arith_parse_neg_digits (d : char) (ds : str) : lead19 d -> all_digits ds ->
  (exists w, arith_parse (45%N :: d :: ds) = Some (EUn UMinus (ELit w))) \/ arith_parse (45%N :: d :: ds) = None.
Proof.
  intros Hd Ha. unfold arith_parse, parse_opt, parse_full.
  pose proof (lead19_skip_ws d ds Hd) as Hws.
  assert (Hn45 : N.eqb 45 d = false) by (unfold lead19 in Hd; lia).
  assert (Hnot : char_not [(45, 45)%N] (d :: ds) = true).
  { unfold char_not, in_class. cbn [existsb fst snd]. unfold lead19 in Hd. lia. }
  (* of the rules [-] can start, the unary minus is tried first; when its operand fails, [--] fails
     too, the next character being a digit *)
  assert (K : forall rec, cfirst_pre rec 0 arith_table (45%N :: d :: ds) =
                          match rec 15%nat (d :: ds) with
                          | PMatch e s2 => PMatch (EUn UMinus e) s2
                          | x => x
                          end).
  { intros rec. rewrite (first_pre_kept (prule_rejects_ok rec [(45, 45)%N] 45%N _ eq_refl)). eval_kept.
    cbn [try_pre]. unfold run_pre. cbn [rk rels run_elems lx_tok lx_not lx_ws lx_lvalue char_lexer drop_prefix].
    rewrite !(N.eqb_refl 45), Hnot, Hws, Hn45.
    destruct (rec 15%nat (d :: ds)); reflexivity. }
  cbn [lx_empty lx_ws lx_size char_lexer blank_zero arith_lex].
  rewrite (skip_ws_nonws 45%N (d :: ds) eq_refl). cbn [length]. rewrite (gparse_S str CL), K.
  destruct (parse_digits_end (S (length ds)) d ds ltac:(lia) Hd Ha) as [(w & ->)| ->]; [left; exists w|right; reflexivity].
  cbn [lx_size char_lexer length infix_loop]. rewrite cpost_nil by (apply rec_good_parse; lia). reflexivity.
Qed.

Theorem number_weight z : val_ok arith_parse 1 (show_Z z).
Proof.
  unfold val_ok. destruct (Z.lt_trichotomy z 0) as [Hneg|[->|Hpos]].
  - (* "-" digits *)
    assert (E : show_Z z = 45%N :: show_Z (- z)).
    { unfold show_Z. destruct (Z.ltb_spec z 0); [|lia]. destruct (Z.ltb_spec (- z) 0); [lia|reflexivity]. }
    rewrite E. destruct (show_Z_pos (- z) ltac:(lia)) as (d & ds & -> & Hd & Hds & _).
    destruct (arith_parse_neg_digits d ds Hd Hds) as [(w & ->)| ->]; [cbn; lia|exact I].
  - replace (arith_parse (show_Z 0)) with (Some (ELit 0)); [cbn; lia|].
    symmetry. apply (parse_render (ELit 0) [TNum 0] 19%nat); [constructor|unfold oknum, M63; cbn; lia].
  - destruct (show_Z_pos z Hpos) as (d & ds & -> & Hd & Hds & _).
    destruct (arith_parse_digits d ds Hd Hds) as [(w & ->)| ->]; [cbn; lia|exact I].
Qed.

(** evaluation with brush's parser terminates, in every environment whose values parse to weight
    [<= H] (or not at all) *)
Theorem eval_terminates nounset (H : nat) fuel e en : (1 <= H)%nat -> env_ok arith_parse H en ->
  ((Z.to_nat (max_deref_depth arith_lex)) * S H + weight e < fuel)%nat ->
  eval arith_parse nounset (max_deref_depth arith_lex) fuel e 0 en <> RFuel.
Proof.
  intros HH Hen Hf. apply (deref_depth_bound arith_parse nounset (max_deref_depth arith_lex) ltac:(vm_compute; congruence) H);
    try assumption.
  - unfold val_ok. replace (arith_parse []) with (Some (ELit 0)) by reflexivity. cbn. lia.
  - intros z. pose proof (number_weight z) as Hw. unfold val_ok in *. destruct (arith_parse (show_Z z)); [lia|exact I].
Qed.

(** A variable that holds its own name: each level parses the name and goes one level deeper, up to
    the recursion limit.  (Evaluating the 1024 levels instead runs the parser 1024 times in the kernel.) *)
Local Notation selfx := [([120%N], [120%N])].
Local Notation evx := (eval arith_parse false (max_deref_depth arith_lex)).

Lemma self_ref_step f d :
  evx (S f) (ERef [120%N] None) d selfx =
  if d + 1 >? U32_MAX then RPanic
  else if d + 1 >? max_deref_depth arith_lex then RErr ERecLimit selfx
  else evx f (ERef [120%N] None) (d + 1) selfx.
Proof.
  cbn [eval deref lookup str_eqb N.eqb Pos.eqb andb].
  replace (arith_parse [120%N]) with (Some (ERef [120%N] None)) by (vm_compute; reflexivity).
  reflexivity.
Qed.

Lemma self_ref_limit k : forall f d, 0 <= d -> d + Z.of_nat k = max_deref_depth arith_lex -> (k < f)%nat ->
  evx f (ERef [120%N] None) d selfx = RErr ERecLimit selfx.
Proof.
  assert (Hm : max_deref_depth arith_lex = 1024) by reflexivity.
  induction k as [|k IH]; intros [|f] d Hd Hk Hf; try lia; rewrite self_ref_step, Hm in *; unfold U32_MAX.
  - destruct (Z.gtb_spec (d + 1) 4294967295); [lia|]. destruct (Z.gtb_spec (d + 1) 1024); [reflexivity|lia].
  - destruct (Z.gtb_spec (d + 1) 4294967295); [lia|]. destruct (Z.gtb_spec (d + 1) 1024); [lia|].
    apply IH; lia.
Qed.

(** non-vacuity: a self-referential variable satisfies the hypothesis; brush's evaluator then stops
    with the recursion-limit error after 1024 levels *)
Example eval_terminates_nonvacuous :
  env_ok arith_parse 1 [([120%N], [120%N])] /\
  eval arith_parse false (max_deref_depth arith_lex) 2100 (ERef [120%N] None) 0 [([120%N], [120%N])]
    = RErr ERecLimit [([120%N], [120%N])].
Proof.
  split.
  - intros y s. cbn [lookup]. destruct (str_eqb y [120%N]); [|discriminate].
    intros Hs; injection Hs as <-. unfold val_ok. vm_compute. lia.
  - apply (self_ref_limit 1024); [lia | reflexivity | apply Nat.ltb_lt; reflexivity].
Qed.
