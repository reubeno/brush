(** C01 — no input crashes the shell (PARTIAL: the numeric/indexing cores; the rest of the pipeline
    is explored by the check, not proved).  Only pinned statements, [exact], [Print Assumptions].
    [f_orig] = checked twin of the code at the pinned commit, [f] = checked twin of the repaired code. *)
From BV Require Import Base.Prelude NoPanic.Mach NoPanic.Brace NoPanic.Substring NoPanic.Vars
  NoPanic.Tilde NoPanic.History NoPanic.Pow NoPanic.FirstChar NoPanic.BraceProofs NoPanic.SubstringProofs NoPanic.OtherProofs.

(** *** brace sequences: rule number() *)
Theorem c01_no_panic_number : forall tok, number tok <> Panic.
Proof. exact no_panic_number. Qed.
Print Assumptions c01_no_panic_number.

Theorem c01_no_panic_number_refuted : exists tok, number_tok tok = true /\ number_orig tok = Panic.
Proof. exact number_refuted. Qed.
Print Assumptions c01_no_panic_number_refuted.

Theorem c01_no_panic_number_outside_known : forall tok,
  number_tok tok = true -> known_number tok = false -> number_orig tok <> Panic.
Proof. exact number_orig_outside_known. Qed.
Print Assumptions c01_no_panic_number_outside_known.

(** *** brace sequences: NumberSequence *)
Theorem c01_no_panic_numseq : forall fuel s e i, numseq fuel s e i <> Panic.
Proof. exact no_panic_numseq. Qed.
Print Assumptions c01_no_panic_numseq.

(** termination, with the length formula |end-start| / max 1 |inc| + 1 *)
Theorem c01_terminates_numseq : forall s e i fuel,
  i64_min <= e -> (Z.to_nat (seq_count s e i) <= fuel)%nat ->
  exists l, numseq fuel s e i = Val l /\ Z.of_nat (length l) = seq_count s e i.
Proof. exact numseq_terminates. Qed.
Print Assumptions c01_terminates_numseq.

Theorem c01_numseq_elements : forall fuel s e i l, numseq fuel s e i = Val l ->
  forall j, (j < length l)%nat ->
  nth j l 0 = if s <=? e then s + Z.of_nat j * step_of i else s - Z.of_nat j * step_of i.
Proof. exact numseq_elements. Qed.
Print Assumptions c01_numseq_elements.

Theorem c01_no_panic_numseq_refuted : exists fuel s e i,
  in_i64 s = true /\ in_i64 e = true /\ in_i64 i = true /\ numseq_orig fuel s e i = Panic.
Proof. exact numseq_refuted. Qed.
Print Assumptions c01_no_panic_numseq_refuted.

Theorem c01_numseq_outside_known : forall fuel s e i,
  in_i64 s = true -> in_i64 i = true -> known_numseq s e i = false ->
  numseq_orig fuel s e i = numseq fuel s e i.
Proof. exact numseq_orig_outside_known. Qed.
Print Assumptions c01_numseq_outside_known.

(** *** brace sequences: CharSequence *)
Theorem c01_no_panic_charseq : forall fuel s e i, charseq fuel s e i <> Panic.
Proof. exact no_panic_charseq. Qed.
Print Assumptions c01_no_panic_charseq.

Theorem c01_terminates_charseq : forall s e i fuel, 0 <= e ->
  (Z.to_nat (Z.abs (s - e)) + 1 <= fuel)%nat -> exists l, charseq fuel s e i = Val l.
Proof. exact charseq_terminates. Qed.
Print Assumptions c01_terminates_charseq.

Theorem c01_no_panic_charseq_refuted : exists fuel s e i,
  is_letter s = true /\ is_letter e = true /\ in_i64 i = true /\ charseq_orig fuel s e i = Panic.
Proof. exact charseq_refuted. Qed.
Print Assumptions c01_no_panic_charseq_refuted.

(** the pinned code loops forever on {b..a..4294967296} *)
Theorem c01_terminates_charseq_refuted : forall fuel, charseq_orig fuel 98 97 4294967296 = OutOfFuel.
Proof. exact charseq_orig_hangs. Qed.
Print Assumptions c01_terminates_charseq_refuted.

Theorem c01_charseq_outside_known : forall fuel s e i,
  known_charseq s e i = false -> charseq_orig fuel s e i = charseq fuel s e i.
Proof. exact charseq_orig_outside_known. Qed.
Print Assumptions c01_charseq_outside_known.

(** *** ${parameter:offset:length} *)
Theorem c01_no_panic_subslice : forall x index end_,
  0 <= index <= end_ -> zlen (fields x) <= u64_max ->
  (from_array x = true -> index <= zlen (fields x)) ->
  subslice x index end_ <> Panic.
Proof. exact no_panic_subslice. Qed.
Print Assumptions c01_no_panic_subslice.

Theorem c01_no_panic_substring : forall x positional off len,
  poly_len x <= i64_max -> zlen (fields x) <= i64_max ->
  in_i64 off = true -> (forall l, len = Some l -> in_i64 l = true) ->
  substring x positional off len <> Panic.
Proof. exact no_panic_substring. Qed.
Print Assumptions c01_no_panic_substring.

Theorem c01_no_panic_substring_refuted : exists x off len,
  in_i64 off = true /\ (forall l, len = Some l -> in_i64 l = true) /\ substring_orig x off len = Panic.
Proof. exact substring_refuted. Qed.
Print Assumptions c01_no_panic_substring_refuted.

Theorem c01_no_panic_substring_outside_known : forall x off len,
  poly_len_orig x <= i64_max -> zlen (fields x) <= i64_max ->
  in_i64 off = true -> (forall l, len = Some l -> in_i64 l = true) ->
  known_substring len = false ->
  substring_orig x off len <> Panic.
Proof. exact substring_orig_outside_known. Qed.
Print Assumptions c01_no_panic_substring_outside_known.

(** *** variables.rs *)
Theorem c01_no_panic_int_append : forall b s, int_append b s <> Panic.
Proof. exact no_panic_int_append. Qed.
Print Assumptions c01_no_panic_int_append.

Theorem c01_no_panic_int_append_refuted : exists b s, int_append_orig b s = Panic.
Proof. exact int_append_refuted. Qed.
Print Assumptions c01_no_panic_int_append_refuted.

Theorem c01_int_append_outside_known : forall b s,
  known_int_append b s = false -> int_append_orig b s = int_append b s.
Proof. exact int_append_orig_outside_known. Qed.
Print Assumptions c01_int_append_outside_known.

Theorem c01_no_panic_array_keys : forall last lits, array_keys last lits <> Panic.
Proof. exact no_panic_array_keys. Qed.
Print Assumptions c01_no_panic_array_keys.

Theorem c01_no_panic_array_keys_refuted : exists last lits, array_keys_orig last lits = Panic.
Proof. exact array_keys_refuted. Qed.
Print Assumptions c01_no_panic_array_keys_refuted.

Theorem c01_array_keys_outside_known : forall last lits,
  (forall m, last = Some m -> 0 <= m <= u64_max) ->
  known_array_keys last lits = false -> array_keys_orig last lits = array_keys last lits.
Proof. exact array_keys_orig_outside_known. Qed.
Print Assumptions c01_array_keys_outside_known.

Theorem c01_no_panic_indexed_key : forall count idx, 0 <= count <= i64_max -> indexed_key count idx <> Panic.
Proof. exact no_panic_indexed_key. Qed.
Print Assumptions c01_no_panic_indexed_key.

Theorem c01_no_panic_capitalize : forall lowered up, capitalize lowered up <> Panic.
Proof. exact no_panic_capitalize. Qed.
Print Assumptions c01_no_panic_capitalize.

Theorem c01_no_panic_capitalize_refuted : exists lowered up, capitalize_orig lowered up = Panic.
Proof. exact capitalize_refuted. Qed.
Print Assumptions c01_no_panic_capitalize_refuted.

Theorem c01_capitalize_outside_known : forall lowered up,
  known_capitalize lowered = false -> capitalize_orig lowered up = capitalize lowered up.
Proof. exact capitalize_orig_outside_known. Qed.
Print Assumptions c01_capitalize_outside_known.

(** *** tilde prefixes *)
Theorem c01_no_panic_tilde_digits : forall ds, tilde_digits ds <> Panic.
Proof. exact no_panic_tilde_digits. Qed.
Print Assumptions c01_no_panic_tilde_digits.

Theorem c01_no_panic_tilde_digits_refuted : exists ds, tilde_digits_orig ds = Panic.
Proof. exact tilde_digits_refuted. Qed.
Print Assumptions c01_no_panic_tilde_digits_refuted.

Theorem c01_tilde_digits_outside_known : forall ds,
  known_tilde ds = false -> tilde_digits_orig ds = tilde_digits ds.
Proof. exact tilde_digits_orig_outside_known. Qed.
Print Assumptions c01_tilde_digits_outside_known.

Theorem c01_no_panic_dirstack : forall count n, dirstack_top count n <> Panic.
Proof. exact no_panic_dirstack. Qed.
Print Assumptions c01_no_panic_dirstack.

(** *** history display *)
Theorem c01_no_panic_display_history : forall count max,
  0 <= count <= u64_max - 1 -> (forall m, max = Some m -> 0 <= m) -> display count max <> Panic.
Proof. exact no_panic_display. Qed.
Print Assumptions c01_no_panic_display_history.

Theorem c01_no_panic_display_history_refuted : exists count max, display_orig count max = Panic.
Proof. exact display_refuted. Qed.
Print Assumptions c01_no_panic_display_history_refuted.

Theorem c01_display_history_outside_known : forall count max,
  known_history count max = false -> display_orig count max = display count max.
Proof. exact display_orig_outside_known. Qed.
Print Assumptions c01_display_history_outside_known.

(** *** loops whose bound is data *)
Theorem c01_terminates_pow : forall b e, e < 2 ^ 64 ->
  exists v, wrapping_pow 64 b e = Val v /\ in_i64 v = true.
Proof. exact pow_terminates. Qed.
Print Assumptions c01_terminates_pow.

Theorem c01_no_panic_deref : forall fuel env i, deref fuel env i 0 <> Panic.
Proof. exact no_panic_deref. Qed.
Print Assumptions c01_no_panic_deref.

Theorem c01_terminates_deref : forall env i, deref 1026 env i 0 <> OutOfFuel.
Proof. exact deref_terminates. Qed.
Print Assumptions c01_terminates_deref.

(** dereference chains through array subscripts: the subscript is evaluated at the current depth *)
Theorem c01_no_panic_deref_subscripts : forall fuel env e, aeval fuel env e 0 <> Panic.
Proof. exact no_panic_aeval. Qed.
Print Assumptions c01_no_panic_deref_subscripts.

Theorem c01_deref_subscript_cycle_fails : aeval 4000 cycle_env (AElem 0 (AVar 0)) 0 = Fail.
Proof. exact aeval_subscript_cycle_fails. Qed.
Print Assumptions c01_deref_subscript_cycle_fails.

(** *** ${v^} / ${v,}: first-character case modification *)
Theorem c01_no_panic_first_char_case : forall s applicable mapped, first_char_case s applicable mapped <> Panic.
Proof. exact no_panic_first_char_case. Qed.
Print Assumptions c01_no_panic_first_char_case.

Theorem c01_first_char_case_spec : forall s applicable mapped,
  first_char_case s applicable mapped =
  Val (match s, applicable, mapped with
       | c :: r, true, u :: _ => u :: r
       | _, _, _ => s
       end).
Proof. exact first_char_case_spec. Qed.
Print Assumptions c01_first_char_case_spec.

(** slicing the rest at the CONVERTED character's byte length panics (dotless i -> I) *)
Theorem c01_first_char_case_wrong_index_refuted : exists s mapped, first_char_case_wrong s true mapped = Panic.
Proof. exact first_char_case_wrong_refuted. Qed.
Print Assumptions c01_first_char_case_wrong_index_refuted.

(** non-vacuity: the hypotheses of the conditional theorems are satisfiable and the functions do
    produce values *)
Theorem c01_nonvacuous :
  numseq 10 5 1 2 = Val [5; 3; 1] /\ seq_count 5 1 2 = 3 /\
  known_numseq 5 1 2 = false /\ known_charseq 122 97 5 = false /\
  substring {| fields := [[[97;98;99;100]%N]]; from_array := false |} false 1 (Some (-1)) = Val [[[98;99]%N]] /\
  substring {| fields := [[[97;98;99;100]%N]]; from_array := false |} false 2 (Some (-5)) = Fail /\
  deref 1026 [Ref 0] 0 0 = Fail.
Proof. exact nopanic_nonvacuous. Qed.
Print Assumptions c01_nonvacuous.
