(** C11 — pipelines and command substitutions move all data, in order, without deadlock
    (partial: theorems about the transition-system model of brush's pipeline algorithm).
    Only pinned statements, [exact], and [Print Assumptions]. *)
From BV Require Import Base.Prelude Conc.Pipe Conc.Sched Conc.SchedProofs Conc.Deadlock Conc.Known Conc.Kahn Conc.Status.

(** On every schedule, for every pipe: read ++ in-flight = written (order kept, nothing lost
    or duplicated), and the buffer stays within the capacity. Any stage kinds, any capacity. *)
Theorem c11_fifo_integrity : forall (A : Type) (C : nat) (sgs : list (stage A)) (s : state A),
  reach C (init sgs) s ->
  Forall (fun p : pipe A => hw p = hr p ++ buf p /\ (length (buf p) <= C)%nat) (pipes s).
Proof. exact fifo_integrity. Qed.
Print Assumptions c11_fifo_integrity.

(** Safety of the data path: on every schedule, at every moment, what has reached the pipeline's
    stdout is a prefix of [spec_out] (the composition of the stages' stream functions). *)
Theorem c11_output_prefix : forall (A : Type) (C : nat) (sgs : list (stage A)) (s : state A),
  sgs <> [] -> reach C (init sgs) s -> prefix (out s) (spec_out A sgs).
Proof. exact output_prefix. Qed.
Print Assumptions c11_output_prefix.

(** Completeness: every reachable final state — any schedule, any stage kinds, stages ended early by
    EPIPE included — has delivered exactly [spec_out]. *)
Theorem c11_output_complete : forall (A : Type) (C : nat) (sgs : list (stage A)) (s : state A),
  sgs <> [] -> reach C (init sgs) s -> final s -> out s = spec_out A sgs.
Proof. exact output_complete. Qed.
Print Assumptions c11_output_complete.

(** If no stage but the last is executed inline, no reachable unfinished state is stuck —
    every payload, every capacity >= 1, every interleaving and split of reads and writes. *)
Theorem c11_progress_all_spawned : forall (A : Type) (C : nat), (1 <= C)%nat ->
  forall (sgs : list (stage A)) (s : state A),
  inline_only_last (map (@skind A) sgs) -> reach C (init sgs) s -> ~ final s ->
  exists s', step C s s'.
Proof. exact progress_inline_only_last. Qed.
Print Assumptions c11_progress_all_spawned.

(** The repaired algorithm (every stage started before any is awaited: all kinds Spawned), without
    any side condition: no reachable unfinished state is stuck, whatever the payloads and C >= 1. *)
Theorem c11_progress_repaired : forall (A : Type) (C : nat), (1 <= C)%nat ->
  forall (sgs : list (stage A)) (s : state A),
  all_spawned A sgs -> reach C (init sgs) s -> ~ final s -> exists s', step C s s'.
Proof. exact progress_repaired. Qed.
Print Assumptions c11_progress_repaired.

(** The same outside the class of the known finding: if every stage that is executed inline and is
    not the last one emits at most the capacity ([known_class], computed from the stages' stream
    functions; the python driver decides the same predicate), no reachable unfinished state is stuck. *)
Theorem c11_progress_outside_known : forall (A : Type) (C : nat), (1 <= C)%nat ->
  forall (sgs : list (stage A)) (s : state A),
  known_class A C sgs = false -> reach C (init sgs) s -> ~ final s ->
  exists s', step C s s'.
Proof. exact progress_outside_known. Qed.
Print Assumptions c11_progress_outside_known.

(** No schedule from a reachable state is longer than that state's measure (any stage kinds):
    together with progress, every schedule of an all-spawned pipeline ends in the final state. *)
Theorem c11_terminates : forall (A : Type) (C : nat) (sgs : list (stage A)) (s : state A),
  reach C (init sgs) s ->
  forall ls s', run_labels C s ls = Some s' -> (length ls + mu A s' <= mu A s)%nat.
Proof. exact terminates. Qed.
Print Assumptions c11_terminates.

(** After the reader of pipe i has exited, the writer's next write (any quantum) ends the
    writer with status 141 instead of blocking. *)
Theorem c11_early_exit_reader : forall (A : Type) (C : nat) (sgs : list (stage A)) (s : state A)
    (i : nat) (sg : stage A) (k : nat),
  reach C (init sgs) s -> k <> 0%nat ->
  nth_error (stages s) i = Some sg -> sst sg = Running -> spend sg <> [] ->
  done_at A s (S i) = true ->
  next C s (LStage i k) = Some (exit_stage s i sg EPIPE_STATUS).
Proof. exact early_exit_reader. Qed.
Print Assumptions c11_early_exit_reader.

(** Regression example about the old algorithm (fixed by 6cea0bb): a stage executed inline in the
    middle can deadlock (capacity 1, payload 3). The model of the current code never has such a stage. *)
Theorem c11_inline_stage_deadlock_refuted :
  exists (C : nat) (sgs : list (stage nat)) (s : state nat),
    (1 <= C)%nat /\ (3 <= length (flat_map (@spend nat) sgs))%nat /\
    reach C (init sgs) s /\ ~ final s /\ stuck C s.
Proof. exact inline_stage_deadlock_refuted. Qed.
Print Assumptions c11_inline_stage_deadlock_refuted.

(** The schedulers run by the correspondence entry only take steps of the system. *)
Theorem c11_run_sched_sound : forall (A : Type) (C q : nat) (down : bool) (fuel : nat)
    (s s0 : state A) (o : outcome A),
  reach C s0 s -> run_sched C q down fuel s = o ->
  match o with
  | OFinal s' => reach C s0 s' /\ final s'
  | OStuck s' => reach C s0 s'
  | OFuel s' => reach C s0 s'
  end.
Proof. exact (fun A C q down fuel => @run_sched_reach A C q down fuel). Qed.
Print Assumptions c11_run_sched_sound.

(** ... and their verdict "stuck" (what the driver turns into "this pipeline hangs") is a state in
    which no label at all is enabled. *)
Theorem c11_stuck_verdict_sound : forall (A : Type) (C q : nat) (down : bool) (fuel : nat),
  q <> 0%nat -> forall s s' : state A, run_sched C q down fuel s = OStuck s' -> stuck C s'.
Proof. exact run_sched_stuck. Qed.
Print Assumptions c11_stuck_verdict_sound.

(** `$?` and PIPESTATUS computed by the wait loop equal bash's rule (last status; with
    pipefail the rightmost failure; `!` inverts; PIPESTATUS is the status vector). *)
Theorem c11_pipeline_status_spec : forall pipefail bang codes, codes <> [] ->
  pipeline_status pipefail bang codes = spec_status pipefail bang codes.
Proof. exact pipeline_status_spec. Qed.
Print Assumptions c11_pipeline_status_spec.

(** `$(...)` drops exactly the maximal suffix of newlines. *)
Theorem c11_cmdsub_strip : forall s : str, exists k,
  s = strip_nl s ++ repeat NL k /\
  (strip_nl s = [] \/ exists s' c, strip_nl s = s' ++ [c] /\ c <> NL).
Proof. exact cmdsub_strip. Qed.
Print Assumptions c11_cmdsub_strip.

(** Non-vacuity: `source 5 | cat | head 2` (last stage inline, capacity 2) satisfies the
    hypothesis of progress and completes with exactly the first two units. *)
Theorem c11_nonvacuous :
  inline_only_last (map (@skind nat) ex_cfg) /\
  exists s, reach 2 (init ex_cfg) s /\ final s /\ out s = [0; 1]%nat /\ sts s = [0; 141; 0]%nat.
Proof. exact ex_nonvacuous. Qed.
Print Assumptions c11_nonvacuous.

Theorem c11_spec_out_example : spec_out nat ex_cfg = [0; 1]%nat /\ spec_out nat dl_cfg = [0; 1; 2]%nat.
Proof. split; reflexivity. Qed.
Print Assumptions c11_spec_out_example.

(** The refutation witness lies in the class; pipelines with a bounded inline stage do not. *)
Theorem c11_known_examples :
  known_class nat 1 dl_cfg = true /\ known_class nat 2 ex_cfg = false /\
  known_class nat 4 [ mkStage Spawned NotStarted 0 (Some 0%nat) true [0;1;2;3;4;5;6;7]%nat;
                      mkStage Inline NotStarted 0 (Some 3%nat) true [];
                      mkStage Spawned NotStarted 0 None true [] ] = false.
Proof. exact known_examples. Qed.
Print Assumptions c11_known_examples.
