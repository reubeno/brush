(** C08 — glob, bracket and extglob patterns match exactly the strings the specification (POSIX
    2.13 + bash extglob) says; the match covers the whole subject.
    Only pinned statements, [exact], and [Print Assumptions]. *)
From Coq Require Import String.
From BV Require Import Base.Prelude Base.Codec Glob.Ast Glob.Parse Glob.Regex Glob.Translate Glob.Sem Glob.Known
  Glob.Proofs Glob.ClassProofs Glob.Decide Glob.Expand Glob.ExpandProofs.

(** The engine model run on the regex emitted for [g] accepts, as a whole-subject match, exactly the
    strings of the specification; for every pattern without !() whose bracket expressions are benign
    ([okb], decidable), every subject, case-sensitive or not, whatever the [m] flag. *)
Theorem c08_translate_correct : forall multi ci g s, okb g = true ->
  whole multi true ci (tr g) s = glob_match ci g s.
Proof. exact translate_correct_dec. Qed.
Print Assumptions c08_translate_correct.

(** [^r$] searched anywhere in the subject (is_match) is a whole-subject match when [m] is off. *)
Theorem c08_anchored_search_is_whole : forall dotall ci r s,
  search false dotall ci (RCat RBol (RCat r REol)) s = whole false dotall ci r s.
Proof. exact anchored_search_is_whole. Qed.
Print Assumptions c08_anchored_search_is_whole.

(** Whole-string theorem for the flags and anchors regenerated from the source ("(?s)", ^ and $):
    what [Pattern::exactly_matches] computes is the specification's whole-subject match. *)
Theorem c08_whole_string : forall ci g s, okb g = true ->
  search eff_multi eff_dotall ci (anchored (tr g)) s = glob_match ci g s.
Proof. exact whole_string_dec. Qed.
Print Assumptions c08_whole_string.

(** regression: with the [m] flag (the defect repaired by f17341b) it is false: abc matches "x\nabc". *)
Theorem c08_regression_multiline :
  exists g s, ok false g /\ search true true false (RCat RBol (RCat (tr g) REol)) s = true /\ glob_match false g s = false.
Proof. exact whole_string_refuted_multi. Qed.
Print Assumptions c08_regression_multiline.

(** The bracket hypothesis is decidable: the engine's class parser reads benign class text as the
    union of its members. *)
Theorem c08_class_benign : forall ci neg cits, class_benign cits = true -> Forall item_valid cits ->
  exists f, class_sem ci neg cits = COk f /\ forall x, f x = existsb (fun i => citem_has i x) cits.
Proof. exact class_benign_sem. Qed.
Print Assumptions c08_class_benign.

(** A quoted piece is read back by the pattern PEG as its characters, and matches exactly itself. *)
Theorem c08_literal_parse : forall ext q, parse ext (escape_lit q) = lits q.
Proof. exact parse_escape_lit. Qed.
Print Assumptions c08_literal_parse.

Theorem c08_literal_identity : forall multi ext q s,
  whole multi true false (tr (parse ext (pieces_text [PLit q]))) s = str_eqb q s.
Proof. exact literal_identity. Qed.
Print Assumptions c08_literal_identity.

(** Obligations over the regenerated tables. *)
Theorem c08_tables : forallb needs_escaping engine_meta = true /\
  forallb (fun c => negb (is_alnum c) && N.ltb c 128 && N.ltb 32 c) needs_escaping_chars = true /\
  (flag_other = false /\ pattern_uses_flags = true /\ flag_dotall = true /\ anchor_start = true /\ anchor_end = true).
Proof. exact (conj needs_escaping_covers_engine_meta (conj needs_escaping_only_punct flags_as_modelled)). Qed.
Print Assumptions c08_tables.

(** Known findings, as refutations on the faithful model. *)
Theorem c08_negation_refuted :
  exists g s, has_neg g = true /\ whole false true false (tr g) s = true /\ glob_match false g s = false.
Proof. exact negation_refuted. Qed.
Print Assumptions c08_negation_refuted.

Theorem c08_leading_bracket_repaired :
  spec_matches false false (s_of "[]a]") (s_of "]") = true /\
  whole false true false (tr (parse false (s_of "[]a]"))) (s_of "]") = true /\
  whole false true false (tr (parse false (s_of "[]a]"))) (s_of "a") = true /\
  whole false true false (tr (parse false (s_of "[!]]"))) (s_of "]") = false /\
  whole false true false (tr (parse false (s_of "[!]]"))) (s_of "a") = true /\
  print_regex (tr (parse false (s_of "[]-a]"))) = [91; 92; 93; 45; 97; 93]%N.
Proof. exact leading_bracket_repaired. Qed.
Print Assumptions c08_leading_bracket_repaired.

Theorem c08_escaped_alnum_repaired :
  whole false true false (tr (parse false [91; 92; 97; 93]%N)) (s_of "a") = true /\
  whole false true false (tr (parse false [91; 92; 97; 93]%N)) [7%N] = false /\
  print_regex (tr (parse false [91; 92; 97; 92; 100; 93]%N)) = s_of "[ad]".
Proof. exact escaped_alnum_repaired. Qed.
Print Assumptions c08_escaped_alnum_repaired.

Theorem c08_class_ops_refuted :
  exists p s, k_class_ops false p = true /\
              whole false true false (tr (parse false p)) s = false /\ spec_matches false false p s = true.
Proof. exact class_ops_refuted. Qed.
Print Assumptions c08_class_ops_refuted.

Theorem c08_paren_nesting_refuted :
  exists p s, k_paren_nest true p = true /\
              whole false true false (tr (parse true p)) s = true /\ spec_matches true false p s = false.
Proof. exact paren_nesting_refuted. Qed.
Print Assumptions c08_paren_nesting_refuted.

(** Pathname expansion over an arbitrary directory oracle [ls]/[ex] (any listing order). *)
Theorem c08_dotfile_policy : forall ls ex ext ci dotglob comps r,
  In r (walk ls ex ext ci dotglob comps [[]]) -> Forall2 (dot_rule dotglob) comps r.
Proof. exact dotfile_policy. Qed.
Print Assumptions c08_dotfile_policy.

Theorem c08_sort_flag : expand_sorts_per_dir || expand_sorts_results = true.
Proof. exact sort_flag. Qed.
Print Assumptions c08_sort_flag.

Theorem c08_expand_sorted_single : forall ls ex ext ci dotglob c, requires_expansion ext c = true ->
  sorted_strs (expand ls ex ext ci dotglob [c]).
Proof. exact (fun ls ex ext ci dotglob c _ => expand_sorted_all ls ex ext ci dotglob [c]). Qed.
Print Assumptions c08_expand_sorted_single.

Theorem c08_expand_sorted_all : forall ls ex ext ci dotglob comps,
  sorted_strs (expand ls ex ext ci dotglob comps).
Proof. exact expand_sorted_all. Qed.
Print Assumptions c08_expand_sorted_all.

Theorem c08_multilevel_sort_repaired :
  expand_model true false false [Codec.lit "a/x"; Codec.lit "a-/x"] (Codec.lit "*/x") = Some [Codec.lit "a-/x"; Codec.lit "a/x"] /\
  expand_spec_words true false false [Codec.lit "a/x"; Codec.lit "a-/x"] (Codec.lit "*/x") = [Codec.lit "a-/x"; Codec.lit "a/x"].
Proof. exact multilevel_sort_repaired. Qed.
Print Assumptions c08_multilevel_sort_repaired.

(** Non-vacuity of the hypotheses. *)
Theorem c08_nonvacuous : okb ex_pat = true /\ ex_pat <> GNil /\
  glob_match false ex_pat ex_yes = true /\ glob_match false ex_pat ex_no = false.
Proof. exact ex_pat_ok. Qed.
Print Assumptions c08_nonvacuous.
