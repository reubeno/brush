(** C13 - Shell-quoted output re-reads to the original values.
    Only pinned statements, [exact], and [Print Assumptions].

    [quote pos o s] models brush-core/src/escape.rs [quote] over the regenerated tables of
    gen/C13EscapeTables.v; [pos] says whether the code has the position-dependent escaping test
    [needs_escaping_at] (regenerated flag [C13EscapeTables.positional_escaping]; absent in the
    unchanged tree).  [read_word p w] is the reader specification of Quote/Reader.v: the bash
    quoting rules for one word in argument / assignment position. *)
From BV Require Import Base.Prelude gen.C13EscapeTables Quote.Quote Quote.Reader Quote.Proofs Quote.AnsiC Quote.Decl.

Theorem c13_read_single : forall p s, read_word p (single_quote s) = Some s.
Proof. exact read_single. Qed.
Print Assumptions c13_read_single.

Theorem c13_read_double : forall p s, read_word p (double_quote s) = Some s.
Proof. exact read_double. Qed.
Print Assumptions c13_read_double.

Theorem c13_read_ansi_c : forall p s, no_nul s -> read_word p (ansi_c_quote s) = Some s.
Proof. exact read_ansi_c. Qed.
Print Assumptions c13_read_ansi_c.

Theorem c13_read_backslash : forall p s, no_ctrl s -> read_word p (backslash_escape true s) = Some s.
Proof. exact read_backslash. Qed.
Print Assumptions c13_read_backslash.

(** every style and option set reachable through force_quote / quote_if_needed, repaired code *)
Theorem c13_read_quote : forall p o s, avoid_nl o = false -> no_nul s ->
  read_word p (quote true o s) = Some s.
Proof. exact read_quote. Qed.
Print Assumptions c13_read_quote.

(** forced single/double quoting (the @Q, @A, declare -p styles): unchanged and repaired code *)
Theorem c13_read_force_quote : forall pos p m s, m <> QBackslash -> no_nul s ->
  read_word p (force_quote pos m s) = Some s.
Proof. exact read_force_quote. Qed.
Print Assumptions c13_read_force_quote.

(** regression example, code before the repair ([pos = false]): the round trip holds outside the class [Known] (a leading ~ or #, a ~ after : or =) *)
Theorem c13_read_quote_outside_known : forall p o s, avoid_nl o = false -> no_nul s -> ~ Known s ->
  read_word p (quote false o s) = Some s.
Proof. exact read_quote_outside_known. Qed.
Print Assumptions c13_read_quote_outside_known.

(** ... and fails inside it *)
Theorem c13_backslash_mode_refuted :
  exists s, no_nul s /\ forall p, read_word p (quote_if_needed false QBackslash s) <> Some s.
Proof. exact (if_needed_refuted QBackslash). Qed.
Print Assumptions c13_backslash_mode_refuted.

Theorem c13_if_needed_refuted : forall m,
  exists s, no_nul s /\ forall p, read_word p (quote_if_needed false m s) <> Some s.
Proof. exact if_needed_refuted. Qed.
Print Assumptions c13_if_needed_refuted.

Theorem c13_hash_refuted :
  exists s, no_nul s /\ read_word Arg (quote_if_needed false QBackslash s) <> Some s.
Proof. exact hash_refuted. Qed.
Print Assumptions c13_hash_refuted.

Theorem c13_colon_tilde_refuted :
  exists s, no_nul s /\ read_word Assign (quote_if_needed false QBackslash s) <> Some s.
Proof. exact colon_tilde_refuted. Qed.
Print Assumptions c13_colon_tilde_refuted.

(** latent: the option avoid_ansi_c_quoting_newline (set by no caller) breaks the if-needed styles *)
Theorem c13_avoid_nl_refuted :
  exists o s, avoid_nl o = true /\ no_nul s /\ read_word Assign (quote true o s) <> Some s.
Proof. exact avoid_nl_refuted. Qed.
Print Assumptions c13_avoid_nl_refuted.

(** brush's own ANSI-C decoder (escape.rs expand_backslash_escapes, model Quote/AnsiC.v) inverts
    ansi_c_quote when a backslash-0 escape takes at most two further octal digits (repaired code) *)
Theorem c13_decode_ansi_body : forall s, Forall (fun c => c <> 0%N) s -> decode 2 (ansi_body s) = DOk (utf8s s).
Proof. exact decode_ansi_body. Qed.
Print Assumptions c13_decode_ansi_body.

(** ... and does not with three (unchanged code): a control character followed by an octal digit *)
Theorem c13_decode_ansi_body_refuted :
  exists s, Forall (fun c => c <> 0%N) s /\ decode 3 (ansi_body s) <> DOk (utf8s s).
Proof. exact decode_ansi_body_refuted. Qed.
Print Assumptions c13_decode_ansi_body_refuted.

(** declare -p values of arrays ([ShellValue::format], DeclarePrint) read back as compound assignments:
    indexed arrays for both values of [pos], associative arrays with the position test in place *)
Theorem c13_decl_indexed : forall pos vs, Forall kv_ok_indexed vs -> read_compound (fmt_indexed pos vs) = Some vs.
Proof. exact read_indexed. Qed.
Print Assumptions c13_decl_indexed.

Theorem c13_decl_assoc : forall kvs, Forall kv_ok_assoc kvs -> read_compound (fmt_assoc true kvs) = Some kvs.
Proof. exact read_assoc. Qed.
Print Assumptions c13_decl_assoc.

Theorem c13_decl_assoc_refuted :
  exists kvs, Forall kv_ok_assoc kvs /\ read_compound (fmt_assoc false kvs) <> Some kvs.
Proof. exact read_assoc_refuted. Qed.
Print Assumptions c13_decl_assoc_refuted.

(** the code as it is now: the regenerated flags say the position test and the three-digit octal rule
    are in place, so the round trips hold without a side condition on the printer *)
Theorem c13_read_quote_current : forall p o s, avoid_nl o = false -> no_nul s ->
  read_word p (quote positional_escaping o s) = Some s.
Proof. exact read_quote_current. Qed.
Print Assumptions c13_read_quote_current.

Theorem c13_decode_ansi_body_current : forall s, Forall (fun c => c <> 0%N) s ->
  decode zero_octal_digits_ansic (ansi_body s) = DOk (utf8s s).
Proof. exact decode_ansi_body_current. Qed.
Print Assumptions c13_decode_ansi_body_current.

Theorem c13_decl_assoc_current : forall kvs, Forall kv_ok_assoc kvs ->
  read_compound (fmt_assoc positional_escaping kvs) = Some kvs.
Proof. exact read_assoc_current. Qed.
Print Assumptions c13_decl_assoc_current.

Theorem c13_nonvacuous :
  read_word Arg (quote_if_needed true QBackslash [TILDE; 97; 32; 39; 36]%N) = Some [TILDE; 97; 32; 39; 36]%N
  /\ quote_if_needed true QBackslash [TILDE; 97; 32; 39; 36]%N = [92; TILDE; 97; 92; 32; 92; 39; 92; 36]%N
  /\ quote_if_needed true QSingle [97; 39; 98]%N = [39; 97; 39; 92; 39; 39; 98; 39]%N
  /\ force_quote true QDouble [97; 34; 9]%N = [36; 39; 97; 34; 92; 116; 39]%N.
Proof. exact read_quote_example. Qed.
Print Assumptions c13_nonvacuous.
