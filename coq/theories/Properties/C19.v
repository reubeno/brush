(** C19 — Syntax highlighting covers the typed line exactly.
    Only pinned statements, [exact], and [Print Assumptions].

    [clamp] is the form of append_span: [false] as in the pinned tree, [true] with the range
    clamped to [current position, line length] (the repair proposed for the here-document
    finding).  gen/C19Variant.v, regenerated from /repo on every run, says which one the code
    has; [highlight] = [highlight_gen clamp_spans]. *)
From BV Require Import Base.Prelude gen.C19Variant Hl.Spans Hl.Spec Hl.Proofs Hl.Cursor Hl.Examples.
Local Open Scope nat_scope.

(** For every line, cursor and every token/piece tree handed to the highlighter that passes the
    decidable check [prog_ok] (token positions ordered, piece indices nested and on char
    boundaries, nested command texts embedded in the line — evaluated on every generated case by
    the extracted checker, discharged by correspondence, not by proof), the model of
    highlight_command (either form) returns spans (no panic) that are in range, on char
    boundaries, ordered, non-overlapping, contiguous from 0 to the end, cover every byte, and
    render back to the line; and no span is empty. *)
Theorem c19_spans_cover : forall clamp top cursor p, prog_ok top p = 0 ->
  exists sp, highlight_gen clamp top cursor p = Some sp
    /\ spec top sp
    /\ Forall (fun x => sstart x < send x) sp.
Proof. exact spans_cover_gen. Qed.
Print Assumptions c19_spans_cover.

(** ... in particular for the form found in /repo *)
Theorem c19_spans_cover_repo : forall top cursor p, prog_ok top p = 0 ->
  exists sp, highlight top cursor p = Some sp
    /\ spec top sp
    /\ Forall (fun x => sstart x < send x) sp.
Proof. exact spans_cover. Qed.
Print Assumptions c19_spans_cover_repo.

Theorem c19_builder_no_panic : forall top cursor p, prog_ok top p = 0 -> highlight top cursor p <> None.
Proof. exact builder_no_panic. Qed.
Print Assumptions c19_builder_no_panic.

(** The span builder alone (append_span / skip_ahead / set_next_missing_kind), for any sequence of
    calls whose ranges are ordered ([cur <= start <= end]) and on char boundaries and whose last
    call ends at the line's length. *)
Theorem c19_builder_cover : forall clamp top cs, wf_calls top 0 cs -> end_cur 0 cs = blen top ->
  exists st, run_calls_gen clamp top bst0 cs = Some st /\ spec top (b_spans st).
Proof. exact builder_cover. Qed.
Print Assumptions c19_builder_cover.

(** The clamped builder needs no order at all: for ANY sequence of calls whose positions are char
    boundaries (what the debug assertions demand) and whose last call asks for the end of the line. *)
Theorem c19_builder_clamped_cover : forall top cs k s e,
  calls_aligned top (cs ++ [Append k s e]) = true -> blen top <= e ->
  exists st, run_calls_gen true top bst0 (cs ++ [Append k s e]) = Some st /\ spec top (b_spans st).
Proof. exact builder_clamped_cover. Qed.
Print Assumptions c19_builder_clamped_cover.

(** ... hence for the clamped highlighter, whatever the tokenizer's order and the piece indices *)
Theorem c19_spans_cover_clamped : forall top cursor p,
  calls_aligned top (prog_calls cursor top 0 p) = true ->
  exists sp, highlight_gen true top cursor p = Some sp /\ spec top sp.
Proof. exact spans_cover_clamped. Qed.
Print Assumptions c19_spans_cover_clamped.

Theorem c19_spans_cover_repo_clamped : clamp_spans = true -> forall top cursor p,
  calls_aligned top (prog_calls cursor top 0 p) = true ->
  exists sp, highlight top cursor p = Some sp /\ spec top sp.
Proof. exact spans_cover_repo_clamped. Qed.
Print Assumptions c19_spans_cover_repo_clamped.

(** Offsets taken from the char->byte table are char boundaries of the UTF-8 bytes (any string,
    any index, including indices past the end, which clamp to the length). *)
Theorem c19_byte_offset_aligned : forall line ci, is_cb (utf8 line) (byte_offset line ci) = true.
Proof. exact (fun line ci => bnd_is_cb line _ (bnd_byte_offset line ci)). Qed.
Print Assumptions c19_byte_offset_aligned.

(** The model's boundary test (table membership) is str::is_char_boundary on the bytes. *)
Theorem c19_is_boundary_is_cb : forall line i, is_boundary line i = is_cb (utf8 line) i.
Proof. exact is_boundary_is_cb. Qed.
Print Assumptions c19_is_boundary_is_cb.

(** The two assertions of upstream's fuzz target imply the property as worded (ordered,
    non-overlapping, every byte covered, rendering reproduces the text). *)
Theorem c19_spec_core_spec : forall line sp, spec_core line sp -> spec line sp.
Proof. exact spec_core_spec. Qed.
Print Assumptions c19_spec_core_spec.

(** The decidable check run on the code's spans decides the property. *)
Theorem c19_spec_code_correct : forall line sp, spec_code line sp = 0 <-> spec line sp.
Proof. exact spec_code_correct. Qed.
Print Assumptions c19_spec_code_correct.

(** Non-vacuity: a line with a nested command substitution, a multi-byte char and a comment
    satisfies the hypothesis, and the model's answer is the one the code gives. *)
Theorem c19_nonvacuous : prog_ok ex_ok_line ex_ok_tree = 0 /\ forall clamp,
  highlight_gen clamp ex_ok_line 23 ex_ok_tree =
    Some [(0, 4, KBuiltin); (4, 5, KComment); (5, 6, KQuoted); (6, 8, KQuoted); (8, 10, KCmdSubst);
          (10, 12, KExternal); (12, 13, KCmdSubst); (13, 15, KDefault); (15, 16, KCmdSubst);
          (16, 18, KQuoted); (18, 19, KQuoted); (19, 23, KQuoted)].
Proof. exact ex_ok. Qed.
Print Assumptions c19_nonvacuous.

(** The order hypothesis is needed for the unclamped form: with the token order the tokenizer
    produces for a here-document the spans overlap (known finding KF-C19-heredoc-token-order) ... *)
Theorem c19_unordered_tokens_refuted : prog_ok ex_heredoc_line ex_heredoc_tree = 1 /\
  exists sp, highlight_gen false ex_heredoc_line 0 ex_heredoc_tree = Some sp /\ ~ spec ex_heredoc_line sp.
Proof. exact ex_heredoc. Qed.
Print Assumptions c19_unordered_tokens_refuted.

(** ... while the clamped form is fine on the same input. *)
Theorem c19_unordered_tokens_clamped :
  calls_aligned ex_heredoc_line (prog_calls 0 ex_heredoc_line 0 ex_heredoc_tree) = true /\
  highlight_gen true ex_heredoc_line 0 ex_heredoc_tree =
    Some [(0, 3, KUnknown); (3, 4, KComment); (4, 6, KOperator); (6, 9, KDefault); (9, 10, KComment);
          (10, 19, KDefault)].
Proof. exact ex_heredoc_clamped. Qed.
Print Assumptions c19_unordered_tokens_clamped.

(** With the unescaped text of a backquoted command a span boundary falls inside a multi-byte
    char: panic in a debug build, either form (known finding KF-C19-backquote-escape-offsets). *)
Theorem c19_unescaped_backquote_refuted :
  prog_ok ex_bq_line ex_bq_tree = 4 /\ forall clamp, highlight_gen clamp ex_bq_line 0 ex_bq_tree = None.
Proof. exact ex_bq. Qed.
Print Assumptions c19_unescaped_backquote_refuted.

(** The cursor only influences kinds (command classification): the byte ranges of the spans, and
    whether the highlighter panics, do not depend on it. *)
Theorem c19_ranges_cursor_independent : forall clamp top c1 c2 p,
  option_map (map range) (highlight_gen clamp top c1 p) = option_map (map range) (highlight_gen clamp top c2 p).
Proof. exact ranges_cursor_independent. Qed.
Print Assumptions c19_ranges_cursor_independent.
