(** C06 — parameter-expansion operators compute bash's result; prefix/suffix removal deletes
    the shortest/longest matching prefix/suffix, the empty one included.
    Only pinned statements, [exact], and [Print Assumptions]. *)
From BV Require Import Base.Prelude ParamExp.Remove ParamExp.RemoveProofs ParamExp.Param ParamExp.ParamSpec ParamExp.ParamProofs.
From BV Require Import gen.C06ParamOps ParamExp.OpsOrder ParamExp.EvProofs.

(** ** The bash-independent clause, for every matcher [m] and every string [s]. *)

(** [##] and [%%] (loops of the unchanged tree): full strength. *)
Theorem c06_remove_largest_prefix : forall m s, largest_prefix_spec m s (remove_largest_prefix m s).
Proof. exact remove_largest_prefix_spec. Qed.
Print Assumptions c06_remove_largest_prefix.

Theorem c06_remove_largest_suffix : forall m s, largest_suffix_spec m s (remove_largest_suffix m s).
Proof. exact remove_largest_suffix_spec. Qed.
Print Assumptions c06_remove_largest_suffix.

(** [#] and [%] (loops as repaired by 0a1f494, ce50a75): full strength. *)
Theorem c06_remove_smallest_prefix : forall m s, smallest_prefix_spec m s (remove_smallest_prefix m s).
Proof. exact remove_smallest_prefix_spec. Qed.
Print Assumptions c06_remove_smallest_prefix.

Theorem c06_remove_smallest_suffix : forall m s, smallest_suffix_spec m s (remove_smallest_suffix m s).
Proof. exact remove_smallest_suffix_spec. Qed.
Print Assumptions c06_remove_smallest_suffix.

(** Regression: the loops as they were before the repair ([…_old]) are refuted when the pattern
    matches the empty string (witness: pattern [*], value abc) and were right outside that class. *)
Theorem c06_regression_old_smallest_prefix_refuted : exists m s, ~ smallest_prefix_spec m s (remove_smallest_prefix_old m s).
Proof. exact remove_smallest_prefix_old_refuted. Qed.
Print Assumptions c06_regression_old_smallest_prefix_refuted.

Theorem c06_regression_old_smallest_suffix_refuted : exists m s, ~ smallest_suffix_spec m s (remove_smallest_suffix_old m s).
Proof. exact remove_smallest_suffix_old_refuted. Qed.
Print Assumptions c06_regression_old_smallest_suffix_refuted.

Theorem c06_regression_old_smallest_prefix_outside_class : forall m s, m [] = false ->
  smallest_prefix_spec m s (remove_smallest_prefix_old m s).
Proof. exact remove_smallest_prefix_old_spec. Qed.
Print Assumptions c06_regression_old_smallest_prefix_outside_class.

Theorem c06_regression_old_smallest_suffix_outside_class : forall m s, m [] = false ->
  smallest_suffix_spec m s (remove_smallest_suffix_old m s).
Proof. exact remove_smallest_suffix_old_spec. Qed.
Print Assumptions c06_regression_old_smallest_suffix_outside_class.

(** The specification determines the result, and the executable oracle used by the check
    computes it. *)
Theorem c06_removal_spec_functional : forall ok b cut s r1 r2,
  removal_spec ok b cut s r1 -> removal_spec ok b cut s r2 -> r1 = r2.
Proof. exact removal_spec_functional. Qed.
Print Assumptions c06_removal_spec_functional.

Theorem c06_oracle_prefix_sound : forall shortest m s,
  removal_spec (prefix_ok m s) shortest (fun k => skipn k s) s (spec_remove_prefix shortest m s).
Proof. exact spec_remove_prefix_sound. Qed.
Print Assumptions c06_oracle_prefix_sound.

Theorem c06_oracle_suffix_sound : forall shortest m s,
  removal_spec (suffix_ok m s) (negb shortest) (fun k => firstn k s) s (spec_remove_suffix shortest m s).
Proof. exact spec_remove_suffix_sound. Qed.
Print Assumptions c06_oracle_suffix_sound.

(** The four operators through [transform_expansion], for every parameter (scalars,
    positional parameters, [$@]/[$*], arrays), with and without nounset. *)
Theorem c06_removal_eq_oracle : forall sh r o m,
  obs (removal true sh r o (Some m)) = removal_oracle sh r o (Some m).
Proof. exact removal_eq_oracle. Qed.
Print Assumptions c06_removal_eq_oracle.

Theorem c06_regression_old_removal_outside_class : forall sh r o m,
  (match o with RmSmallestPrefix | RmSmallestSuffix => m [] = false | _ => True end) ->
  obs (removal false sh r o (Some m)) = removal_oracle sh r o (Some m).
Proof. exact removal_old_eq_oracle. Qed.
Print Assumptions c06_regression_old_removal_outside_class.

(** ** unset / null / set *)
Theorem c06_arms_are_posix_table : forall op colon st, arm_action op colon st = posix_table op colon (tr st).
Proof. exact arms_are_posix_table. Qed.
Print Assumptions c06_arms_are_posix_table.

Theorem c06_unset_null_table : forall sh r op colon w, known_cond sh r op colon = false ->
  obs2 (conditional sh r op colon (of_string w)) = conditional_spec sh r op colon w.
Proof. exact unset_null_table. Qed.
Print Assumptions c06_unset_null_table.

(** ** length *)
Theorem c06_length_eq_spec : forall sh r, known_len sh r = false ->
  parameter_length sh r = length_spec sh r.
Proof. exact length_eq_spec. Qed.
Print Assumptions c06_length_eq_spec.

Theorem c06_length_chars : forall sh r,
  (forall w, is_list r = false -> words sh r = Some [w] -> parameter_length sh r = Ok (length w)) /\
  (forall l, is_list r = true -> words sh r = Some l -> parameter_length sh r = Ok (length l)).
Proof. exact length_chars. Qed.
Print Assumptions c06_length_chars.

Theorem c06_regression_old_length_ascii : forall sh r,
  (forall w, is_list r = false -> words sh r = Some [w] -> ascii w = true) ->
  parameter_length_old sh r = parameter_length sh r.
Proof. exact length_old_eq. Qed.
Print Assumptions c06_regression_old_length_ascii.

Theorem c06_regression_old_length_refuted : exists sh r, parameter_length_old sh r <> length_spec sh r.
Proof. exact length_old_refuted. Qed.
Print Assumptions c06_regression_old_length_refuted.

(** ** substring *)
Theorem c06_substring_bounds_eq_bash : forall sh r off olen, fits sh r ->
  obs (substring sh r off olen) = substring_spec sh r off olen.
Proof. exact substring_eq_spec. Qed.
Print Assumptions c06_substring_bounds_eq_bash.

Theorem c06_substring_no_panic : forall sh r off olen, fits sh r -> substring sh r off olen <> Panic.
Proof. exact substring_no_panic. Qed.
Print Assumptions c06_substring_no_panic.

(** The unchanged arm, outside its two known classes (negative length; non-ASCII scalar word). *)
Theorem c06_regression_old_substring_outside_class : forall sh r off olen, fits sh r ->
  (forall l, olen = Some l -> 0 <= l) ->
  (forall w, is_list r = false -> words sh r = Some [w] -> ascii w = true) ->
  obs (substring_old sh r off olen) = substring_spec sh r off olen.
Proof. exact substring_old_eq_spec. Qed.
Print Assumptions c06_regression_old_substring_outside_class.

Theorem c06_regression_old_substring_panics : exists sh r off olen, substring_old sh r off olen = Panic.
Proof. exact substring_old_panics. Qed.
Print Assumptions c06_regression_old_substring_panics.

Theorem c06_regression_old_substring_negative_length :
  obs (substring_old (sh_scalar abcdefgh) RNamed 2 (Some (-3))) <> substring_spec (sh_scalar abcdefgh) RNamed 2 (Some (-3)).
Proof. exact substring_old_negative_length_refuted. Qed.
Print Assumptions c06_regression_old_substring_negative_length.

(** Order of evaluation: the offset is evaluated only for a parameter that has words, the length only
    for an offset inside the value (side effects and errors of skipped operands do not happen). *)
Theorem c06_substring_evaluation_order : forall sh r off olen, fits sh r ->
  obs_ev (substring_ev sh r off olen) = substring_spec_ev sh r off olen.
Proof. exact substring_ev_eq_spec. Qed.
Print Assumptions c06_substring_evaluation_order.

(** ** [${!a[@]}] / [${!a[*]}] *)
Theorem c06_member_keys : forall sh c, dq_args (member_keys sh c) = keys_spec sh c.
Proof. exact member_keys_eq_spec. Qed.
Print Assumptions c06_member_keys.

(** ** operator recognition order of the grammar (table regenerated from word.rs on every run):
    no operator literal is tried before a longer one it is a proper prefix of. *)
Theorem c06_ops_longest_first : forall i j a b, (i < j)%nat ->
  nth_error param_ops i = Some a -> nth_error param_ops j = Some b -> proper_prefix a b = false.
Proof. exact ops_longest_first. Qed.
Print Assumptions c06_ops_longest_first.

Theorem c06_modelled_ops_recognised : forallb (fun o => existsb (str_eqb o) param_ops) modelled_ops = true.
Proof. exact modelled_ops_recognised. Qed.
Print Assumptions c06_modelled_ops_recognised.

(** ** regression examples on the model of the present code *)
Theorem c06_regression_examples :
  remove_smallest_prefix m_star abc = abc /\ remove_smallest_suffix m_star abc = abc /\
  parameter_length (sh_scalar e_acute) RNamed = Ok 1%nat /\
  substring (sh_scalar abcd) RNamed 2 (Some (-5)) = Fail /\
  obs (substring (sh_scalar abcdefgh) RNamed 2 (Some (-3))) = Ok ([[99; 100; 101]%N], None) /\
  substring_ev (sh_scalar abc) RNamed {| oval := 5; oerr := false; oinc := 0 |} (Some {| oval := 0; oerr := true; oinc := 1 |})
    = (Ok {| fields := []; concatenate := true; from_array := false; undefined := false |}, 0).
Proof. exact regression_examples. Qed.
Print Assumptions c06_regression_examples.

(** ** non-vacuity *)
Theorem c06_hypotheses_satisfiable :
  fits (sh_scalar abcd) RNamed /\ fits sh_array (RAll false) /\ fits sh_array (RArgs true) /\
  known_cond sh_array (RAll false) OpAlt true = false /\ known_cond (sh_scalar []) RNamed OpAssign true = false /\
  known_len sh_array (RAll true) = false /\
  (exists m : str -> bool, m [] = false /\ m abcd = true).
Proof. exact hypotheses_satisfiable. Qed.
Print Assumptions c06_hypotheses_satisfiable.
