(** A concrete instance of the front-end model for the hypotheses of [modes_agree_gen]
    ([example_hypotheses], [t_parse_concat]; non-vacuity): one command per newline-terminated
    line, a command is the line number the parser recorded, executing it appends the line number
    $LINENO would show. *)
From BV Require Import Base.Prelude Modes.Complete Modes.CompleteProofs Modes.Modes.

Definition t_parse (_ : unit) (t : str) : option (list nat) := Some (seq 1 (count_nl t)).
Definition t_shift (n c : nat) : nat := (n + c)%nat.
Definition t_exec (c base : nat) (st : list nat) : list nat * flow := (st ++ [(c + base)%nat], FNormal).
Definition t_nm (_ : unit) (_ : str) : bool := false.
Definition t_keq (a b : str * unit) : bool := str_eqb (fst a) (fst b).

Lemma t_keq_eq a b : t_keq a b = true <-> a = b.
Proof.
  destruct a as [x []], b as [y []]. unfold t_keq; cbn. rewrite str_eqb_eq.
  split; [intros ->; reflexivity | intros H; now inversion H].
Qed.

Lemma map_add_seq a : forall s b, map (Nat.add a) (seq s b) = seq (a + s) b.
Proof.
  intros s b; revert s; induction b as [|b IH]; intros s; cbn; [reflexivity|].
  f_equal. rewrite IH. f_equal. lia.
Qed.

Lemma t_parse_concat : forall o t1 t2 cs1 cs2,
  t_nm o t1 = false -> ends_nl t1 = true -> t_parse o t1 = Some cs1 -> t_parse o t2 = Some cs2 ->
  t_parse o (t1 ++ t2) = Some (cs1 ++ map (t_shift (count_nl t1)) cs2).
Proof.
  intros o t1 t2 cs1 cs2 _ _ H1 H2. unfold t_parse in *. inversion H1; inversion H2; subst.
  rewrite count_nl_app, seq_app. do 2 f_equal.
  unfold t_shift. rewrite map_add_seq. f_equal. lia.
Qed.

Definition ex_lines : list str := [[101; 10]; [102; 10]; [103; 10]]%N.

Lemma example_agrees :
  let r := script_frontend (list nat) nat unit t_exec (fun st => st ++ [0%nat]) (fun _ _ st => st) t_parse tt (concat ex_lines) [] in
  r = [1; 2; 3; 0]%nat /\
  stdin_frontend (list nat) nat unit t_exec (fun st => st ++ [0%nat]) (fun _ _ st => st) t_parse t_nm t_keq
      (fun _ s => s) (fun s => firstn 64 s) [] tt ex_lines [] = r.
Proof. vm_compute. split; reflexivity. Qed.

Lemma example_hypotheses :
  (forall a b, t_keq a b = true <-> a = b) /\
  (forall n c base st, t_exec (t_shift n c) base st = t_exec c (n + base) st) /\
  (forall o, t_parse o [] = Some []) /\
  nonlast (fun l => ends_nl l = true) ex_lines /\
  Forall (fun ch => t_parse tt ch <> None) (chunks_of (t_nm tt) [] ex_lines) /\
  flow_ok (snd (run_parsed (list nat) nat t_exec (fun _ _ st => st) (t_parse tt (concat ex_lines)) (concat ex_lines) 0 [])).
Proof.
  split; [exact t_keq_eq|]. split.
  { intros n c base st. unfold t_exec, t_shift. do 3 f_equal. lia. }
  split; [reflexivity|]. split; [cbn; auto|]. split.
  { vm_compute. repeat constructor; discriminate. }
  left. reflexivity.
Qed.

(** Regression example for the repaired finding KF-C15-eval-lineno-base: eval'ed from line 3 of its
    source, a one-line text reports line 3 (the model of the code before fix e4871cd reported 1), and a
    two-line text reports 3 and 4; with a frame offset of 2 (third line of standard input, `eval`
    on the second line of its chunk) the text reports line 4. *)
Example eval_lineno_regression :
  fst (eval_builtin (list nat) nat unit t_exec (fun _ _ st => st) t_parse t_keq (fun _ s => s) (fun s => firstn 64 s)
         [] tt [101; 10]%N 0 3 []) = [3]%nat /\
  fst (eval_builtin (list nat) nat unit t_exec (fun _ _ st => st) t_parse t_keq (fun _ s => s) (fun s => firstn 64 s)
         [] tt [101; 10; 102; 10]%N 0 3 []) = [3; 4]%nat /\
  fst (eval_builtin (list nat) nat unit t_exec (fun _ _ st => st) t_parse t_keq (fun _ s => s) (fun s => firstn 64 s)
         [] tt [101; 10]%N 2 2 []) = [4]%nat.
Proof. vm_compute. repeat split. Qed.
