(** C15 — the completeness decision on the lexical fragment: quoting, escapes, line
    continuations, comments.

    Model: the tokenizer's quoting state machine (brush-parser/src/tokenizer.rs
    [next_token_until]: [QuoteMode], [in_escape], backslash-newline removal, `#` at the start of a
    token, blanks/newlines delimiting tokens) restricted to texts made of word characters,
    blanks, newlines, quotes, backslashes and `#`: on such texts every token is a word, the
    grammar accepts every token sequence, so the verdict of [parse_string] is decided by how the
    scan ends ([lex_class]).  The decision itself is the *same* [Complete.needs_more] as
    everywhere else (arms table, truncation test).

    Spec, in a different style: a grammar of complete texts ([Prog]): separators, comments
    that start a token and run to the end of the line, escaped characters, line continuations
    that are followed by something, closed single and double quotes.

    Theorem [lex_completeness]: on this fragment the decision says "more input needed" exactly
    when the text is not a complete program but can be extended to one. *)
From Coq Require Import String.
From BV Require Import Base.Prelude Base.Codec Modes.Complete Modes.CompleteProofs gen.C15Incomplete.

Inductive cc := KNl | KBlank | KSq | KDq | KBs | KHash | KPlain.

Definition cls (c : char) : cc :=
  (if N.eqb c 10 then KNl
   else if N.eqb c 32 || N.eqb c 9 then KBlank
   else if N.eqb c 39 then KSq
   else if N.eqb c 34 then KDq
   else if N.eqb c 92 then KBs
   else if N.eqb c 35 then KHash
   else KPlain)%N.

(** Scanner states: outside quotes at the start of a token / inside a word; inside single /
    double quotes; just after a backslash outside quotes (remembering whether a token had
    started) / inside double quotes; inside a comment. *)
Inductive lst := S0 | SW | SQ | DQ | EN (start : bool) | ED | CMT.

Definition step (s : lst) (c : char) : lst :=
  match s, cls c with
  | S0, KNl | S0, KBlank => S0
  | S0, KSq => SQ | S0, KDq => DQ
  | S0, KBs => EN true
  | S0, KHash => CMT
  | S0, KPlain => SW
  | SW, KNl | SW, KBlank => S0
  | SW, KSq => SQ | SW, KDq => DQ
  | SW, KBs => EN false
  | SW, KHash | SW, KPlain => SW
  | SQ, KSq => SW
  | SQ, _ => SQ
  | DQ, KDq => SW
  | DQ, KBs => ED
  | DQ, _ => DQ
  | EN b, KNl => if b then S0 else SW      (* backslash-newline: both dropped *)
  | EN _, _ => SW
  | ED, _ => DQ
  | CMT, KNl => S0
  | CMT, _ => CMT
  end.

Definition run (s : lst) (t : str) : lst := fold_left step t s.

(** How the scan ends decides the verdict ([next_token_until] at end of input). *)
Definition classify (s : lst) : pclass :=
  match s with
  | S0 | SW | CMT => COk
  | SQ => CTok "UnterminatedSingleQuote"
  | DQ => CTok "UnterminatedDoubleQuote"
  | EN _ | ED => CTok "UnterminatedEscapeSequence"
  end.

Definition class_from (s : lst) (t : str) : pclass := classify (run s t).
Definition lex_class (t : str) : pclass := class_from S0 t.

Definition lex_needs_more (t : str) : bool := needs_more lex_class t.

(** The grammar of complete texts.  [b]: at the start of a token. *)
Definition is_sep (c : char) : bool := match cls c with KNl | KBlank => true | _ => false end.
Definition is_nl (c : char) : bool := match cls c with KNl => true | _ => false end.
Definition word_char (b : bool) (c : char) : bool :=
  match cls c with KPlain => true | KHash => negb b | _ => false end.

Inductive DqBody : str -> Prop :=
| D_nil : DqBody []
| D_char c body : cls c <> KDq -> cls c <> KBs -> DqBody body -> DqBody (c :: body)
| D_esc c body : DqBody body -> DqBody (92%N :: c :: body).

Inductive Prog : bool -> str -> Prop :=
| P_nil b : Prog b []
| P_sep b c t : is_sep c = true -> Prog true t -> Prog b (c :: t)
| P_comment body t : Forall (fun c => is_nl c = false) body ->
    (t = [] \/ exists t', t = 10%N :: t') -> Prog true t -> Prog true (35%N :: body ++ t)
| P_word b c t : word_char b c = true -> Prog false t -> Prog b (c :: t)
| P_esc b c t : is_nl c = false -> Prog false t -> Prog b (92%N :: c :: t)
| P_cont b t : t <> [] -> Prog b t -> Prog b (92%N :: 10%N :: t)
| P_sq b body t : Forall (fun c => cls c <> KSq) body -> Prog false t -> Prog b (39%N :: body ++ 39%N :: t)
| P_dq b body t : DqBody body -> Prog false t -> Prog b (34%N :: body ++ 34%N :: t).

(** ** Acceptance: the scan ends outside quotes and not right after a line continuation. *)
Fixpoint acc (s : lst) (t : str) : bool :=
  match t with
  | [] => match s with S0 | SW | CMT => true | _ => false end
  | c :: t' =>
      match s, t' with
      | EN _, [] => match cls c with KNl => false | _ => acc (step s c) t' end
      | _, _ => acc (step s c) t'
      end
  end.

Lemma cls_nl : cls 10%N = KNl. Proof. reflexivity. Qed.
Lemma cls_bs : cls 92%N = KBs. Proof. reflexivity. Qed.

Lemma cls_inv c :
  match cls c with
  | KNl => c = 10%N | KSq => c = 39%N | KDq => c = 34%N | KBs => c = 92%N | KHash => c = 35%N
  | KBlank | KPlain => True
  end.
Proof.
  unfold cls. destruct (N.eqb_spec c 10); [assumption|]. destruct (N.eqb c 32 || N.eqb c 9)%N; [exact I|].
  destruct (N.eqb_spec c 39); [assumption|]. destruct (N.eqb_spec c 34); [assumption|].
  destruct (N.eqb_spec c 92); [assumption|]. destruct (N.eqb_spec c 35); [assumption|exact I].
Qed.

Definition is_esc_state (s : lst) : bool := match s with EN _ | ED => true | _ => false end.

Lemma classify_ok s : classify s = COk <-> (s = S0 \/ s = SW \/ s = CMT).
Proof. destruct s; cbn; split; intros H; auto; try discriminate; destruct H as [H|[H|H]]; discriminate. Qed.

(** the continuation test of the decision, from state [s] *)
Definition cont_from (s : lst) (t : str) : bool :=
  match strip_suffix_char cont_suffix t with
  | None => false
  | Some tr => if ends_with_char cont_last tr
               then match class_from s tr with CTok v => String.eqb v cont_variant | _ => false end
               else false
  end.

Definition nm_from (s : lst) (t : str) : bool := needs_more_class (class_from s t) (cont_from s t).

Lemma nmc_of_state s cont :
  needs_more_class (classify s) cont = match s with S0 | SW | CMT => cont | _ => true end.
Proof. rewrite needs_more_class_spec. destruct s; reflexivity. Qed.

Lemma run_cons s c t : run s (c :: t) = run (step s c) t.
Proof. reflexivity. Qed.

Lemma strip_cons c d t : strip_suffix_char cont_suffix (c :: d :: t) =
  match strip_suffix_char cont_suffix (d :: t) with Some r => Some (c :: r) | None => None end.
Proof. reflexivity. Qed.

Lemma cont_from_cons3 s c d e t : cont_from s (c :: d :: e :: t) = cont_from (step s c) (d :: e :: t).
Proof.
  unfold cont_from. rewrite strip_cons. rewrite (strip_cons d e t).
  destruct (strip_suffix_char cont_suffix (e :: t)) as [r'|]; [|reflexivity].
  change (ends_with_char cont_last (c :: d :: r')) with (ends_with_char cont_last (d :: r')).
  unfold class_from. rewrite run_cons. reflexivity.
Qed.

Lemma cont_from_single s c : cont_from s [c] = false.
Proof. unfold cont_from. cbn. destruct (N.eqb c cont_suffix); reflexivity. Qed.

Lemma cont_from_two s c d :
  cont_from s [c; d] = N.eqb d cont_suffix && (N.eqb c cont_last && is_esc_state (step s c)).
Proof.
  unfold cont_from. cbn [strip_suffix_char]. destruct (N.eqb d cont_suffix); [|reflexivity].
  cbn [ends_with_char andb]. destruct (N.eqb c cont_last); [|reflexivity].
  unfold class_from. cbn [run fold_left andb]. destruct (step s c); reflexivity.
Qed.

Lemma eqb_nl_cls d : N.eqb d cont_suffix = match cls d with KNl => true | _ => false end.
Proof.
  change cont_suffix with 10%N. generalize (cls_inv d).
  destruct (N.eqb_spec d 10) as [->|Hn]; [reflexivity|]. destruct (cls d); intros; (contradiction || reflexivity).
Qed.

Lemma en_step {s c b} : step s c = EN b -> c = 92%N.
Proof.
  generalize (cls_inv c). unfold step.
  destruct s as [| | | |[]| |], (cls c); intros Hc H; (discriminate H || exact Hc).
Qed.

Definition is_nil (t : str) : bool := match t with [] => true | _ => false end.
(** [acc] consumes one character; only a newline right after a backslash may not be the last one *)
Lemma acc_cons s c t :
  acc s (c :: t) = negb (match s with EN _ => is_nl c && is_nil t | _ => false end) && acc (step s c) t.
Proof.
  destruct s; try reflexivity. destruct t; [|cbn [is_nil]; rewrite andb_false_r; reflexivity].
  cbn [acc is_nil]. unfold step, is_nl. destruct (cls c); reflexivity.
Qed.

Definition not_en (s : lst) : Prop := match s with EN _ => False | _ => True end.

Lemma acc_step s c t : not_en s -> acc s (c :: t) = acc (step s c) t.
Proof. intros H. rewrite acc_cons. destruct s; try reflexivity; contradiction. Qed.

Lemma acc_cons2 s c d t : acc s (c :: d :: t) = acc (step s c) (d :: t).
Proof. destruct s; reflexivity. Qed.

(** The model's decision is [negb acc], from any starting state [s].  Excluded: a one-character
    text read in an escape state - its backslash lies before the text, so the continuation test,
    which looks at the text alone, cannot see it; from [S0] this does not arise. *)
Theorem nm_from_acc : forall t s, (2 <= length t)%nat \/ is_esc_state s = false ->
  nm_from s t = negb (acc s t).
Proof.
  induction t as [|c t IH]; intros s Hs.
  - unfold nm_from, class_from, cont_from. cbn [run fold_left strip_suffix_char]. rewrite nmc_of_state.
    destruct s; reflexivity.
  - destruct t as [|d t'].
    + (* one character *)
      destruct Hs as [Hs|Hs]; [cbn [length] in Hs; lia|].
      unfold nm_from. rewrite cont_from_single. unfold class_from. cbn [run fold_left]. rewrite nmc_of_state.
      cbn [acc]. unfold step. destruct s as [| | | |b| |], (cls c); try discriminate Hs; reflexivity.
    + rewrite acc_cons2. destruct t' as [|e t''].
      * (* two characters: a trailing continuation shows only when the first one is an unquoted
           backslash; otherwise the second character decides alone *)
        destruct (is_esc_state (step s c)) eqn:Ee.
        -- unfold nm_from. rewrite cont_from_two, eqb_nl_cls, Ee. unfold class_from. cbn [run fold_left].
           rewrite nmc_of_state. destruct (step s c) as [| | | |b| |] eqn:Es; try discriminate Ee.
           ++ rewrite (en_step Es). cbn [acc]. unfold step. destruct b, (cls d); reflexivity.
           ++ cbn [acc]. unfold step. destruct (cls d); reflexivity.
        -- rewrite <- (IH (step s c) (or_intror Ee)). unfold nm_from.
           rewrite cont_from_two, Ee, cont_from_single, !andb_false_r. reflexivity.
      * assert (Hlen : (2 <= length (d :: e :: t''))%nat) by (cbn [length]; lia).
        rewrite <- (IH (step s c) (or_introl Hlen)). unfold nm_from. rewrite cont_from_cons3. reflexivity.
Qed.

Corollary lex_needs_more_acc t : lex_needs_more t = negb (acc S0 t).
Proof. apply (nm_from_acc t S0). now right. Qed.

Definition st_of (b : bool) : lst := if b then S0 else SW.

Lemma step_st_of b c :
  step (st_of b) c =
  match cls c with
  | KNl | KBlank => S0 | KSq => SQ | KDq => DQ | KBs => EN b
  | KHash => if b then CMT else SW | KPlain => SW
  end.
Proof. destruct b; unfold step; cbn; destruct (cls c); reflexivity. Qed.

Lemma step_EN b c : step (EN b) c = if is_nl c then st_of b else SW.
Proof. unfold step, is_nl. destruct (cls c); reflexivity. Qed.

Lemma step_ED c : step ED c = DQ.
Proof. unfold step. destruct (cls c); reflexivity. Qed.

Lemma is_nl_inv c : is_nl c = true -> c = 10%N.
Proof. unfold is_nl. generalize (cls_inv c). destruct (cls c); intros Hc H; (discriminate H || exact Hc). Qed.

(** What remains to be read in state [s], in terms of the grammar. *)
Definition Rest (s : lst) (t : str) : Prop :=
  match s with
  | S0 => Prog true t
  | SW => Prog false t
  | SQ => exists body t', t = body ++ 39%N :: t' /\ Forall (fun c => cls c <> KSq) body /\ Prog false t'
  | DQ => exists body t', t = body ++ 34%N :: t' /\ DqBody body /\ Prog false t'
  | ED => exists c body t', t = c :: body ++ 34%N :: t' /\ DqBody body /\ Prog false t'
  | CMT => exists body t', t = body ++ t' /\ Forall (fun c => is_nl c = false) body /\
                           (t' = [] \/ exists t'', t' = 10%N :: t'') /\ Prog true t'
  | EN b => exists c t', t = c :: t' /\
              ((is_nl c = false /\ Prog false t') \/ (c = 10%N /\ t' <> [] /\ Prog b t'))
  end.

Lemma rest_st_of b t : Rest (st_of b) t = Prog b t.
Proof. destruct b; reflexivity. Qed.

Lemma rest_step_word b c t : Rest (step (st_of b) c) t -> Prog b (c :: t).
Proof.
  rewrite step_st_of. generalize (cls_inv c). destruct (cls c) eqn:E; intros Hc H; cbn [Rest] in H.
  - apply P_sep; [unfold is_sep; now rewrite E | exact H].
  - apply P_sep; [unfold is_sep; now rewrite E | exact H].
  - subst c. destruct H as (body & t' & -> & Hb & Hp). now apply P_sq.
  - subst c. destruct H as (body & t' & -> & Hb & Hp). now apply P_dq.
  - subst c. destruct H as (c2 & t' & -> & [[Hn Hp]|(-> & Hne & Hp)]); [now apply P_esc | now apply P_cont].
  - subst c. destruct b; cbn [Rest] in H.
    + destruct H as (body & t' & -> & Hb & Hr & Hp). now apply P_comment.
    + apply P_word; [reflexivity | exact H].
  - apply P_word; [unfold word_char; now rewrite E | exact H].
Qed.

(** inside quotes or a comment, a character that does not end it extends the body *)
Lemma rest_sq_cons c t : cls c <> KSq -> Rest SQ t -> Rest SQ (c :: t).
Proof.
  intros Hc (body & t' & -> & Hb & Hp). exists (c :: body), t'.
  split; [reflexivity|]. split; [constructor; assumption | exact Hp].
Qed.

Lemma rest_dq_cons c t : cls c <> KDq -> cls c <> KBs -> Rest DQ t -> Rest DQ (c :: t).
Proof.
  intros Hc Hc' (body & t' & -> & Hb & Hp). exists (c :: body), t'.
  split; [reflexivity|]. split; [now apply D_char | exact Hp].
Qed.

Lemma rest_cmt_cons c t : is_nl c = false -> Rest CMT t -> Rest CMT (c :: t).
Proof.
  intros Hc (body & t' & -> & Hb & Hr & Hp). exists (c :: body), t'.
  split; [reflexivity|]. split; [constructor; assumption|]. split; [exact Hr | exact Hp].
Qed.

Lemma rest_step s c t : not_en s -> Rest (step s c) t -> Rest s (c :: t).
Proof.
  destruct s as [| | | |b| |]; intros Hs; [| | | |contradiction| |].
  - apply (rest_step_word true).
  - apply (rest_step_word false).
  - (* single quotes *)
    unfold step. generalize (cls_inv c). destruct (cls c) eqn:E; intros Hc H;
      try (apply rest_sq_cons; [rewrite E; discriminate | exact H]).
    subst c. exists [], t. split; [reflexivity|]. split; [constructor | exact H].
  - (* double quotes *)
    unfold step. generalize (cls_inv c). destruct (cls c) eqn:E; intros Hc H;
      try (apply rest_dq_cons; [rewrite E; discriminate | rewrite E; discriminate | exact H]).
    + subst c. exists [], t. split; [reflexivity|]. split; [constructor | exact H].
    + subst c. destruct H as (c2 & body & t' & -> & Hb & Hp).
      exists (92%N :: c2 :: body), t'. split; [reflexivity|]. split; [now apply D_esc | exact Hp].
  - rewrite step_ED. intros (body & t' & -> & Hb & Hp). exists c, body, t'. auto.
  - (* comment *)
    unfold step. generalize (cls_inv c). destruct (cls c) eqn:E; intros Hc H;
      try (apply rest_cmt_cons; [unfold is_nl; now rewrite E | exact H]).
    subst c. exists [], (10%N :: t). split; [reflexivity|]. split; [constructor|]. split; [right; eauto|].
    apply P_sep; [reflexivity | exact H].
Qed.

Lemma rest_step_en b c t : (is_nl c = true -> t <> []) -> Rest (step (EN b) c) t -> Rest (EN b) (c :: t).
Proof.
  rewrite step_EN. intros Hne H. exists c, t. split; [reflexivity|]. destruct (is_nl c) eqn:E.
  - right. rewrite rest_st_of in H. split; [now apply is_nl_inv|]. split; [now apply Hne | exact H].
  - left. split; [reflexivity | exact H].
Qed.

Lemma acc_sound : forall t s, acc s t = true -> Rest s t.
Proof.
  induction t as [|c t IH]; intros s H.
  - destruct s; try discriminate H; cbn [Rest]; try constructor.
    exists [], []. split; [reflexivity|]. split; [constructor|]. split; [now left | constructor].
  - rewrite acc_cons in H. apply andb_true_iff in H. destruct H as [Hl H]. apply IH in H.
    destruct s as [| | | |b| |]; try (now apply rest_step).
    apply rest_step_en; [|exact H]. intros Hc ->. rewrite Hc in Hl. discriminate Hl.
Qed.

Lemma acc_app ext : ext <> [] -> forall t s, acc s (t ++ ext) = acc (run s t) ext.
Proof.
  intros Hne. induction t as [|c t IH]; intros s; [reflexivity|].
  cbn [app]. rewrite run_cons, <- IH, acc_cons.
  replace (is_nil (t ++ ext)) with false by (destruct t, ext; try reflexivity; contradiction).
  rewrite andb_false_r. destruct s; reflexivity.
Qed.

Lemma run_sq_body body : Forall (fun c => cls c <> KSq) body -> run SQ body = SQ.
Proof.
  induction 1 as [|c body Hc _ IH]; [reflexivity|]. rewrite run_cons.
  replace (step SQ c) with SQ by (unfold step; destruct (cls c); try reflexivity; contradiction). exact IH.
Qed.

Lemma run_dq_body body : DqBody body -> run DQ body = DQ.
Proof.
  induction 1 as [|c body H1 H2 _ IH|c body _ IH]; [reflexivity| |].
  - rewrite run_cons.
    replace (step DQ c) with DQ by (unfold step; destruct (cls c); try reflexivity; contradiction). exact IH.
  - rewrite !run_cons. change (step DQ 92%N) with ED. rewrite step_ED. exact IH.
Qed.

Lemma acc_cmt_body body t : Forall (fun c => is_nl c = false) body -> acc CMT (body ++ t) = acc CMT t.
Proof.
  induction 1 as [|c body Hc _ IH]; cbn [app]; [reflexivity|].
  rewrite acc_step by exact I. unfold step. unfold is_nl in Hc. destruct (cls c); try exact IH. discriminate.
Qed.

Lemma acc_complete : forall b t, Prog b t -> acc (st_of b) t = true.
Proof.
  induction 1 as [b|b c t Hc _ IH|body t Hb Hr _ IH|b c t Hc _ IH|b c t Hc _ IH|b t Hne _ IH|b body t Hb _ IH|b body t Hb _ IH];
    [destruct b; reflexivity|..]; rewrite acc_step, step_st_of by (try destruct b; exact I).
  - unfold is_sep in Hc. destruct (cls c); try discriminate; exact IH.
  - change (cls 35%N) with KHash. cbv iota. rewrite acc_cmt_body by exact Hb.
    destruct Hr as [->|[t' ->]]; [reflexivity|]. rewrite acc_step by exact I. exact IH.
  - unfold word_char in Hc. destruct (cls c), b; try discriminate; exact IH.
  - rewrite cls_bs, acc_cons, step_EN, Hc. cbn [andb negb]. exact IH.
  - rewrite cls_bs, acc_cons, step_EN. destruct t; [contradiction|]. exact IH.
  - change (cls 39%N) with KSq. cbv iota. rewrite acc_app, run_sq_body by (exact Hb || discriminate).
    rewrite acc_step by exact I. exact IH.
  - change (cls 34%N) with KDq. cbv iota. rewrite acc_app, run_dq_body by (exact Hb || discriminate).
    rewrite acc_step by exact I. exact IH.
Qed.

Theorem acc_iff_prog t : acc S0 t = true <-> Prog true t.
Proof.
  split.
  - apply (acc_sound t S0).
  - apply (acc_complete true).
Qed.

Definition closing (s : lst) : str :=
  match s with
  | S0 | SW | CMT | EN _ => [97%N]
  | SQ => [39%N]
  | DQ => [34%N]
  | ED => [97%N; 34%N]
  end.

Lemma completable t : exists ext, Prog true (t ++ ext).
Proof.
  exists (closing (run S0 t)). apply acc_iff_prog.
  rewrite acc_app by (destruct (run S0 t); discriminate).
  destruct (run S0 t) as [| | | |b| |]; try reflexivity; destruct b; reflexivity.
Qed.

Theorem lex_completeness : completeness_stmt lex_class (Prog true).
Proof.
  intros t. change (needs_more lex_class t) with (lex_needs_more t).
  rewrite lex_needs_more_acc. split.
  - intros H. split; [|apply completable].
    intros Hp. apply acc_iff_prog in Hp. rewrite Hp in H. discriminate.
  - intros [Hn _]. destruct (acc S0 t) eqn:E; [|reflexivity].
    exfalso. apply Hn. now apply acc_iff_prog.
Qed.

(** Non-vacuity and sanity: some members and non-members of the grammar, decided by the model. *)
Example lex_examples :
  lex_needs_more (lit "a 'b") = true /\ lex_needs_more (lit "a # 'b") = false /\
  lex_needs_more [97; 92; 10]%N = true /\ lex_needs_more [97; 32; 35; 92; 10]%N = false /\
  lex_needs_more [97; 92; 92; 10]%N = false /\ lex_needs_more [34; 97; 92; 34; 10]%N = true.
Proof. vm_compute. repeat split. Qed.

(** ** Correspondence entries
    c15lex       : text            -> verdict class of the scan, decision
    c15lexchunks : n line*n        -> the chunks the front-end forms with the fragment's decision *)
Definition show_class (c : pclass) : str :=
  match c with
  | COk => lit "ok" | CAtEnd => lit "atend" | CNear => lit "near"
  | CTok v => lit "tok:" ++ lit v
  end.

Definition entry_c15lex (a : list str) : list str :=
  match a with
  | [t] => [show_class (lex_class t); enc_bool (lex_needs_more t)]
  | [] => [show_class (lex_class []); enc_bool (lex_needs_more [])]
  | _ => [lit "?malformed"]
  end.

Definition entry_c15lexchunks (a : list str) : list str :=
  match a with
  | n :: r => chunks_of lex_needs_more [] (firstn (dec_nat n) r)
  | [] => []
  end.
