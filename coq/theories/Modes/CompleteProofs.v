(** C15 — the classification table of the completeness decision; the accumulation loop
    ([chunks_spec]); the completeness statement and what is proved of it; line counts and offsets
    of the chunks ([offsets_are_lines_before]). *)
From Coq Require Import String.
From BV Require Import Base.Prelude Modes.Complete gen.C15Incomplete.

(** The match of [needs_more_input_locked] is exhaustive over the parse verdicts. *)
Lemma nmi_arms_exhaustive : forall c, first_arm nmi_arms c <> None.
Proof.
  intros [|v| |]; unfold nmi_arms; cbn [first_arm pat_matches]; try discriminate.
  destruct (is_incomplete v); discriminate.
Qed.

Definition unterminated (v : string) : bool := String.prefix "Unterminated" v.

(** A tokenizer error kind counts as "input may be incomplete" iff it is one of the
    [Unterminated*] kinds (over the regenerated variant list of [TokenizerError]). *)
Lemma incomplete_table_b :
  forallb (fun v => Bool.eqb (is_incomplete v) (unterminated v)) tokenizer_error_variants = true.
Proof. vm_compute. reflexivity. Qed.

Theorem incomplete_table : forall v, In v tokenizer_error_variants -> is_incomplete v = unterminated v.
Proof.
  intros v Hin. pose proof incomplete_table_b as H. rewrite forallb_forall in H.
  apply Bool.eqb_prop, H, Hin.
Qed.

Lemma incomplete_variants_exist : forallb (fun v => str_in v tokenizer_error_variants) is_incomplete_variants = true.
Proof. vm_compute. reflexivity. Qed.

(** What the arms of [needs_more_input_locked] compute: mid-token errors of an incomplete kind
    and "ran out of tokens" ask for more input; a bad token never does; a clean parse asks for
    more exactly when the text ends in a line continuation. *)
Theorem needs_more_class_spec : forall c cont,
  needs_more_class c cont =
  match c with CTok v => is_incomplete v | CAtEnd => true | CNear => false | COk => cont end.
Proof.
  intros [|v| |] cont; unfold needs_more_class, nmi_arms; cbn [first_arm pat_matches]; try reflexivity.
  destruct (is_incomplete v); reflexivity.
Qed.

Theorem needs_more_tokenizer_errors : forall v cont, In v tokenizer_error_variants ->
  needs_more_class (CTok v) cont = unterminated v.
Proof. intros v cont Hin. rewrite needs_more_class_spec. now apply incomplete_table. Qed.

(** The continuation test looks for the escape-at-end-of-input error after removing one
    trailing newline that follows a backslash. *)
Lemma continuation_literals : cont_suffix = NL /\ cont_last = 92%N /\ cont_variant = "UnterminatedEscapeSequence"%string.
Proof. repeat split. Qed.

(** The extractor recognised every shape in the completeness decision (regenerated obligation):
    the model of [ends_with_line_continuation] has exactly the tests the code has. *)
Lemma incomplete_shapes_recognised : incomplete_unrecognised = [].
Proof. reflexivity. Qed.

Section ChunkSpec.
  Variable nm : str -> bool.

  (** [chunks_of] is [read_program] iterated until end of input ([read_line] never returns an
      empty line before end of input). *)
  Lemma chunks_of_read_program : forall lines acc,
    Forall (fun l => l <> []) lines -> lines <> [] ->
    chunks_of nm acc lines =
    (let '(ch, rest) := read_program nm acc lines in ch :: chunks_of nm [] rest).
  Proof.
    induction lines as [|l ls IH]; intros acc Hl Hne; [contradiction|].
    inversion Hl as [|? ? Hl1 Hl2]; subst.
    cbn [chunks_of read_program]. destruct (nm (acc ++ l)) eqn:E; [|reflexivity].
    destruct ls as [|l2 ls'].
    - cbn. destruct (acc ++ l) eqn:Ea; [|reflexivity].
      apply app_eq_nil in Ea. destruct Ea; contradiction.
    - apply IH; [exact Hl2 | discriminate].
  Qed.

  (** A group of lines is handed over as soon as it is complete: no proper non-empty
      line-prefix of it was complete. *)
  Definition minimal (g : list str) : Prop :=
    forall j, (0 < j < length g)%nat -> nm (concat (firstn j g)) = true.
  Definition complete (g : list str) : Prop := nm (concat g) = false.

  (** [g]: the lines accumulated in the group still pending; every non-empty line-prefix of it
      asked for more input *)
  Definition pending (g : list str) : Prop :=
    forall j, (0 < j <= length g)%nat -> nm (concat (firstn j g)) = true.

  Lemma firstn_snoc (g : list str) l j : (j <= length g)%nat -> firstn j (g ++ [l]) = firstn j g.
  Proof. intros Hj. rewrite firstn_app. replace (j - length g)%nat with 0%nat by lia. apply app_nil_r. Qed.

  Lemma pending_snoc g l : pending g -> nm (concat (g ++ [l])) = true -> pending (g ++ [l]).
  Proof.
    intros Hp E j Hj. rewrite app_length in Hj. cbn in Hj.
    destruct (Nat.eq_dec j (S (length g))) as [->|Hne].
    - rewrite firstn_all2 by (rewrite app_length; cbn; lia). exact E.
    - rewrite firstn_snoc by lia. apply Hp. lia.
  Qed.

  Lemma pending_minimal g l : pending g -> minimal (g ++ [l]).
  Proof.
    intros Hp j Hj. rewrite app_length in Hj. cbn in Hj. rewrite firstn_snoc by lia. apply Hp. lia.
  Qed.

  (** [chunks_of] started in the middle of a group: [g0] holds the lines read since the last
      chunk was handed over, [lines] what is still to be read. *)
  Lemma chunks_spec_gen : forall lines g0,
    Forall (fun l => l <> []) lines -> Forall (fun l => l <> []) g0 -> pending g0 ->
    exists groups,
      concat groups = g0 ++ lines /\
      map (@concat _) groups = chunks_of nm (concat g0) lines /\
      Forall (fun g => g <> [] /\ minimal g) groups /\
      nonlast complete groups.
  Proof.
    induction lines as [|l ls IH]; intros g0 Hls Hg0 Hpre.
    - destruct g0 as [|x g0'].
      + exists []. cbn. repeat split; constructor.
      + exists [x :: g0']. inversion Hg0 as [|? ? Hx _]; subst.
        split; [reflexivity|].
        split; [destruct x; [contradiction|reflexivity]|].
        split; [|exact I].
        constructor; [|constructor]. split; [discriminate|].
        intros j Hj. apply Hpre. lia.
    - inversion Hls as [|? ? Hl Hls']; subst.
      cbn [chunks_of].
      replace (concat g0 ++ l) with (concat (g0 ++ [l])) by (rewrite concat_app; cbn; now rewrite app_nil_r).
      destruct (nm (concat (g0 ++ [l]))) eqn:E.
      + destruct (IH (g0 ++ [l]) Hls') as (groups & H1 & H2 & H3 & H4).
        * apply Forall_app; split; [exact Hg0 | constructor; [exact Hl | constructor]].
        * now apply pending_snoc.
        * exists groups. rewrite <- app_assoc in H1. auto.
      + destruct (IH [] Hls') as (groups & H1 & H2 & H3 & H4).
        * constructor.
        * intros j Hj. cbn in Hj. lia.
        * exists ((g0 ++ [l]) :: groups).
          split; [cbn [concat]; rewrite H1; now rewrite <- app_assoc|].
          split; [cbn [map]; now rewrite H2|].
          split.
          -- constructor; [|exact H3]. split; [destruct g0; discriminate | now apply pending_minimal].
          -- cbn [nonlast]. destruct groups; [exact I|]. split; [exact E | exact H4].
  Qed.

  (** On standard input a command runs as soon as, and only when, the text read so far forms a
      complete command (relative to the decision [nm]): the chunks partition the lines in
      order; every chunk but the last is complete; no chunk has a complete proper line-prefix.
      The last chunk is what was pending at end of input. *)
  Theorem chunks_spec : forall lines, Forall (fun l => l <> []) lines ->
    exists groups,
      concat groups = lines /\
      map (@concat _) groups = chunks_of nm [] lines /\
      Forall (fun g => g <> [] /\ minimal g) groups /\
      nonlast complete groups.
  Proof.
    intros lines Hl. destruct (chunks_spec_gen lines [] Hl) as (groups & H); [constructor | intros j Hj; cbn in Hj; lia |].
    exists groups. exact H.
  Qed.
End ChunkSpec.

Lemma chunks_of_concat nm : forall lines acc, concat (chunks_of nm acc lines) = acc ++ concat lines.
Proof.
  induction lines as [|l ls IH]; intros acc.
  - cbn. destruct acc; cbn; now rewrite ?app_nil_r.
  - cbn [chunks_of]. destruct (nm (acc ++ l)).
    + rewrite IH. cbn. now rewrite app_assoc.
    + cbn. rewrite IH. cbn. now rewrite app_assoc.
Qed.

(** What is not proved (kept visible): the decision is right for every text.
    [is_program t]: [t] is a syntactically valid program (the parser accepts it and it does not
    end inside a line continuation).  The full completeness statement needs a model of the
    tokenizer and the grammar; it is explored by the correspondence check instead (every
    line-prefix of every generated program, against the generator's own knowledge of where the
    commands end and against `bash -n`). *)
Definition completeness_stmt (parse_class : str -> pclass) (is_program : str -> Prop) : Prop :=
  forall t, needs_more parse_class t = true <-> (~ is_program t /\ exists ext, is_program (t ++ ext)).

(** Partial: relative to the parser's verdict. *)
Theorem completeness_partial : forall parse_class t,
  needs_more parse_class t = true <->
  match parse_class t with
  | CTok v => is_incomplete v = true
  | CAtEnd => True
  | CNear => False
  | COk => ends_with_line_continuation parse_class t = true
  end.
Proof.
  intros pc t. unfold needs_more. rewrite needs_more_class_spec.
  destruct (pc t); split; auto; discriminate.
Qed.

(** regenerated obligation: the floor of [execute_line]'s line count is at most one line *)
Lemma floor_le_one : (line_count_floor <= 1)%nat.
Proof. vm_compute. lia. Qed.

Lemma count_nl_app a b : count_nl (a ++ b) = (count_nl a + count_nl b)%nat.
Proof. induction a as [|c a IH]; cbn; [reflexivity|]. destruct (N.eqb c NL); cbn; now rewrite IH. Qed.

Lemma with_offsets_app off a b :
  with_offsets off (a ++ b) = with_offsets off a ++ with_offsets (off + fold_right (fun ch n => line_count ch + n)%nat 0%nat a) b.
Proof.
  revert off; induction a as [|ch a IH]; intros off; cbn [with_offsets app fold_right]; [now rewrite Nat.add_0_r|].
  rewrite IH. now rewrite Nat.add_assoc.
Qed.

Lemma lines_count_nl s : ends_nl s = true ->
  forall p, lines_count_go s p = count_nl s /\ (1 <= count_nl s)%nat.
Proof.
  unfold ends_nl. induction s as [|c s IH]; intros H p; [discriminate|].
  cbn [lines_count_go count_nl]. destruct s as [|d s'].
  - cbn in H. rewrite H. cbn. lia.
  - change (ends_with_char NL (d :: s') = true) in H.
    destruct (N.eqb c NL); [destruct (IH H false)|destruct (IH H true)]; lia.
Qed.

Lemma line_count_nl {s} : ends_nl s = true -> line_count s = count_nl s.
Proof.
  intros H. unfold line_count, lines_count. destruct (lines_count_nl s H false) as [-> Hp].
  pose proof floor_le_one. lia.
Qed.

Lemma ends_nl_app a l : l <> [] -> ends_nl (a ++ l) = ends_nl l.
Proof.
  intros Hl. unfold ends_nl. induction a as [|x a IH]; [reflexivity|].
  cbn [app ends_with_char]. destruct (a ++ l) eqn:E; [|exact IH].
  apply app_eq_nil in E. destruct E; contradiction.
Qed.

Lemma fold_line_count_nl (pre : list str) : Forall (fun ch => ends_nl ch = true) pre ->
  fold_right (fun ch n => line_count ch + n)%nat 0%nat pre = count_nl (concat pre).
Proof.
  induction 1 as [|ch pre Hch _ IH]; cbn [fold_right concat]; [reflexivity|].
  rewrite count_nl_app, IH, (line_count_nl Hch). reflexivity.
Qed.

(** $LINENO bookkeeping of the standard-input front-end: the line offset in force when a chunk
    runs is the number of lines read before it (so offset + the position the parser records
    inside the chunk = the line of the whole input). *)
Theorem offsets_are_lines_before : forall off pre ch post,
  Forall (fun c => ends_nl c = true) pre ->
  In ((off + count_nl (concat pre))%nat, ch) (with_offsets off (pre ++ ch :: post)).
Proof.
  intros off pre ch post Hpre. rewrite with_offsets_app, fold_line_count_nl by exact Hpre.
  apply in_or_app. right. cbn [with_offsets]. now left.
Qed.
