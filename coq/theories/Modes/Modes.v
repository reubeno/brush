(** C15 — the five ways a program reaches the interpreter, over an abstract command executor.

    Mirrors
      brush-core/src/interp.rs          [impl Execute for ast::Program]         -> [run_program]
      brush-core/src/shell/execution.rs [run_string] [run_dash_c_command] [run_script]
                                        [parse_and_execute_script_file] [source_script]
      brush-builtins/src/eval.rs, dot.rs
      brush-shell/src/entry.rs          [run_in_shell]
      brush-interactive/src/interactive_shell.rs [run_interactively] [execute_line]
      brush-interactive/src/minimal/input_backend.rs [read_program_from]  (Complete.chunks_of)

    Abstract (Section variables): the shell state [St]; parsed complete commands [cmd];
    [exec c base st] — executing one complete command whose source positions are to be read
    with [base] lines added (what $LINENO reports inside [c] is [base] + the position recorded by
    the parser); [shift n c] — the command the parser produces for the same text starting [n]
    lines further down; the uncached parser [parse]; the EXIT path [on_exit]; the report of a
    parse error.  [-c], [eval] and the standard-input front-end parse through the memoised
    [Shell::parse_string] (Cache.Lru), script files and [source] through the plain parser. *)
From BV Require Import Base.Prelude Cache.Lru Modes.Complete Modes.CompleteProofs.

Inductive flow := FNormal | FExit | FReturn | FLoop.

Lemma nonlast_cons {A} (P : A -> Prop) x r : r <> [] -> nonlast P (x :: r) <-> P x /\ nonlast P r.
Proof. destruct r; [contradiction|]. intros _. reflexivity. Qed.

Section Modes.
  Variables St cmd opts : Type.
  Variable exec : cmd -> nat -> St -> St * flow.
  Variable shift : nat -> cmd -> cmd.
  Variable on_exit : St -> St.
  Variable parse_error : str -> nat -> St -> St.   (* display the error, set the status *)
  Variable parse : opts -> str -> option (list cmd).
  Variable needs_more : opts -> str -> bool.

  (** [impl Execute for ast::Program]: complete commands in order; anything but normal flow stops
      the program and is handed to the caller. *)
  Fixpoint run_program (cs : list cmd) (base : nat) (st : St) : St * flow :=
    match cs with
    | [] => (st, FNormal)
    | c :: cs' => let '(st', fl) := exec c base st in
                  match fl with FNormal => run_program cs' base st' | _ => (st', fl) end
    end.

  Lemma program_concat cs1 cs2 base st :
    run_program (cs1 ++ cs2) base st =
    (let '(st1, fl) := run_program cs1 base st in
     match fl with FNormal => run_program cs2 base st1 | _ => (st1, fl) end).
  Proof.
    revert st; induction cs1 as [|c cs1 IH]; intros st; cbn; [reflexivity|].
    destruct (exec c base st) as [st' fl]. destruct fl; try reflexivity. apply IH.
  Qed.

  (** The memoised [Shell::parse_string]: key (text, options); any bounded policy. *)
  Variable K_eqb : (str * opts) -> (str * opts) -> bool.
  Variable on_hit : (str * opts) -> list ((str * opts) * option (list cmd)) -> list ((str * opts) * option (list cmd)).
  Variable on_insert : list ((str * opts) * option (list cmd)) -> list ((str * opts) * option (list cmd)).
  Definition parse_string (history : list (str * opts)) (o : opts) (text : str) : option (list cmd) :=
    cached_call K_eqb on_hit on_insert (fun a => parse (snd a) (fst a)) (fun a => a) history (text, o).

  (** [run_parsed_result] of a whole text at line base [base]. *)
  Definition run_parsed (r : option (list cmd)) (text : str) (base : nat) (st : St) : St * flow :=
    match r with
    | Some cs => run_program cs base st
    | None => (parse_error text base st, FNormal)
    end.

  (** brush FILE: [run_script] = parse the whole file, run, EXIT path. A `return` that reaches
      the script boundary is consumed. *)
  Definition script_frontend (o : opts) (text : str) (st : St) : St :=
    on_exit (fst (run_parsed (parse o text) text 0 st)).

  (** brush -c TEXT: [run_dash_c_command] = [run_string] (memoised parse), EXIT path. *)
  Definition dash_c_frontend (h : list (str * opts)) (o : opts) (text : str) (st : St) : St :=
    on_exit (fst (run_parsed (parse_string h o text) text 0 st)).

  (** The [eval] builtin (brush-builtins/src/eval.rs after fix e4871cd): [run_string] in the
      current frame; control flow passes through.  While the string runs the frame's line offset is
      raised by the line [L] of the `eval` command within its source minus one
      ([pos.line.saturating_sub(1)]), and lowered again afterwards, so positions inside the
      eval'ed text count from the line of the `eval` command. *)
  Definition eval_line_delta (L : nat) : nat := L - 1.
  Definition eval_builtin (h : list (str * opts)) (o : opts) (text : str) (base L : nat) (st : St) : St * flow :=
    run_parsed (parse_string h o text) text (base + eval_line_delta L) st.

  (** The [.]/[source] builtin: plain parse of the file, own frame with base 0, `return` consumed. *)
  Definition dot_builtin (o : opts) (text : str) (st : St) : St * flow :=
    let '(st', fl) := run_parsed (parse o text) text 0 st in
    (st', match fl with FReturn => FNormal | _ => fl end).

  (** Specification (bash): line [j] of the eval'ed text reports the absolute line of the `eval`
      word ([base + L]) plus [j - 1], i.e. the text is read at base "absolute line of eval, minus one". *)
  Definition eval_builtin_bash (h : list (str * opts)) (o : opts) (text : str) (base L : nat) (st : St) : St * flow :=
    run_parsed (parse_string h o text) text (Nat.pred (base + L)) st.

  Definition eval_lineno_stmt : Prop :=
    forall h o text base L st, (1 <= L)%nat ->
    eval_builtin h o text base L st = eval_builtin_bash h o text base L st.

  (** Holds since fix e4871cd (finding KF-C15-eval-lineno-base). *)
  Lemma eval_lineno : eval_lineno_stmt.
  Proof.
    intros h o text base L st HL. unfold eval_builtin, eval_builtin_bash, eval_line_delta.
    replace (base + (L - 1))%nat with (Nat.pred (base + L)) by lia. reflexivity.
  Qed.

  (** Delivery through a one-command wrapper ( -c 'eval "$text"' ,  -c '. file' ). *)
  Definition eval_delivery (h : list (str * opts)) (o : opts) (text : str) (st : St) : St :=
    on_exit (fst (eval_builtin h o text 0 1 st)).
  Definition source_delivery (o : opts) (text : str) (st : St) : St :=
    on_exit (fst (dot_builtin o text st)).

  (** Standard input: [run_interactively] over the chunks handed over by the input backend;
      after each chunk the frame's line offset grows by the chunk's line count; `exit` ends the
      loop; at end of input the EXIT path runs. *)
  Fixpoint stdin_run (h : list (str * opts)) (o : opts) (chs : list str) (off : nat) (st : St) : St :=
    match chs with
    | [] => on_exit st
    | ch :: r =>
        let '(st', fl) := run_parsed (parse_string h o ch) ch off st in
        match fl with
        | FExit => on_exit st'
        | _ => stdin_run (h ++ [(ch, o)]) o r (off + line_count ch) st'
        end
    end.
  Definition stdin_frontend (h : list (str * opts)) (o : opts) (lines : list str) (st : St) : St :=
    stdin_run h o (chunks_of (needs_more o) [] lines) 0 st.

  (** The six hypotheses of [modes_agree_gen] stand where they are first needed;
      [program_concat] and [eval_lineno] above rest on none. *)
  Hypothesis K_eqb_eq : forall a b, K_eqb a b = true <-> a = b.
  Hypothesis on_hit_incl : forall k s, incl (on_hit k s) s.
  Hypothesis on_insert_incl : forall s, incl (on_insert s) s.

  Lemma parse_string_pure h o text : parse_string h o text = parse o text.
  Proof.
    unfold parse_string.
    apply (memo_transparent _ _ _ K_eqb K_eqb_eq on_hit on_insert on_hit_incl on_insert_incl
             (fun a => parse (snd a) (fst a))).
    intros a b ->; reflexivity.
  Qed.

  (** Positions are additive: the parser records positions relative to the text it is given and
      the frame adds its base ([Frame::current_line]). *)
  Hypothesis exec_shift : forall n c base st, exec (shift n c) base st = exec c (n + base) st.
  Hypothesis parse_empty : forall o, parse o [] = Some [].
  (** The parser is compositional on complete chunks: parsing a text that continues after a
      chunk the front-end would have handed over gives the chunk's commands followed by the
      rest's commands, [count_nl] lines further down. *)
  Hypothesis parse_concat : forall o t1 t2 cs1 cs2,
    needs_more o t1 = false -> ends_nl t1 = true ->
    parse o t1 = Some cs1 -> parse o t2 = Some cs2 ->
    parse o (t1 ++ t2) = Some (cs1 ++ map (shift (count_nl t1)) cs2).

  Lemma run_program_shift n cs base st :
    run_program (map (shift n) cs) base st = run_program cs (n + base) st.
  Proof.
    revert st; induction cs as [|c cs IH]; intros st; cbn; [reflexivity|].
    rewrite exec_shift. destruct (exec c (n + base) st) as [st' fl]. destruct fl; try reflexivity. apply IH.
  Qed.

  Fixpoint parse_chunks (o : opts) (chs : list str) : option (list cmd) :=
    match chs with
    | [] => Some []
    | ch :: r => match parse o ch, parse_chunks o r with
                 | Some cs, Some cr => Some (cs ++ map (shift (count_nl ch)) cr)
                 | _, _ => None
                 end
    end.

  Definition chunk_done (o : opts) (ch : str) : Prop := needs_more o ch = false /\ ends_nl ch = true.

  Lemma parse_concat_chunks o chs :
    nonlast (chunk_done o) chs -> Forall (fun ch => parse o ch <> None) chs ->
    exists cs, parse_chunks o chs = Some cs /\ parse o (concat chs) = Some cs.
  Proof.
    induction chs as [|ch r IH]; intros Hnl Hall; [exists []; split; [reflexivity|apply parse_empty]|].
    inversion Hall as [|? ? Hch Hr]; subst. cbn [concat parse_chunks].
    destruct (parse o ch) as [cs|] eqn:Ech; [|congruence].
    destruct r as [|c2 r'].
    - exists (cs ++ []). cbn. rewrite !app_nil_r. auto.
    - destruct Hnl as [[Hnm Hnl1] Hnl2]. destruct (IH Hnl2 Hr) as (cr & -> & Hcr).
      eexists. split; [reflexivity|]. now apply parse_concat.
  Qed.

  (** the flows on which the modes can agree: after `return` or a loop-control flow at top level
      [run_program] stops while the standard-input loop goes on with the next chunk *)
  Definition flow_ok (fl : flow) : Prop := fl = FNormal \/ fl = FExit.

  Lemma stdin_run_whole o : forall chs h off st cs,
    nonlast (chunk_done o) chs -> parse_chunks o chs = Some cs ->
    flow_ok (snd (run_program cs off st)) ->
    stdin_run h o chs off st = on_exit (fst (run_program cs off st)).
  Proof.
    induction chs as [|ch r IH]; intros h off st cs Hnl Hp Hfl.
    - cbn in Hp. inversion Hp; subst. reflexivity.
    - cbn [parse_chunks] in Hp.
      destruct (parse o ch) as [c1|] eqn:E1; [|discriminate].
      destruct (parse_chunks o r) as [cr|] eqn:Er; [|discriminate].
      inversion Hp; subst cs; clear Hp.
      cbn [stdin_run]. rewrite parse_string_pure, E1. cbn [run_parsed].
      rewrite program_concat in Hfl |- *.
      destruct (run_program c1 off st) as [st1 fl] eqn:R1.
      destruct fl.
      + (* FNormal *) rewrite run_program_shift in Hfl |- *.
        destruct r as [|c2 r'].
        * cbn in Er. inversion Er; subst cr. reflexivity.
        * destruct Hnl as [[_ Hnl1] Hnl2].
          rewrite (line_count_nl Hnl1), (Nat.add_comm off).
          apply IH; auto.
      + (* FExit *) reflexivity.
      + (* FReturn *) cbn in Hfl. destruct Hfl; discriminate.
      + (* FLoop *) cbn in Hfl. destruct Hfl; discriminate.
  Qed.

  Lemma chunks_of_done o : forall lines acc,
    nonlast (fun l => ends_nl l = true) lines ->
    nonlast (chunk_done o) (chunks_of (needs_more o) acc lines).
  Proof.
    induction lines as [|l ls IH]; intros acc Hl.
    - cbn. destruct acc; exact I.
    - cbn [chunks_of]. destruct (needs_more o (acc ++ l)) eqn:Enm.
      + apply IH. destruct ls; [exact I | apply Hl].
      + destruct ls as [|l2 ls'].
        * cbn. exact I.
        * destruct Hl as [Hl1 Hl2]. specialize (IH [] Hl2).
          remember (chunks_of (needs_more o) [] (l2 :: ls')) as X.
          destruct X as [|x X']; [exact I|].
          split; [|exact IH].
          split; [exact Enm|]. rewrite ends_nl_app; [exact Hl1 | intros ->; discriminate Hl1].
  Qed.

  (** Script file, [-c], [eval], [source] and standard input give the same final state for the
      same text, whatever was parsed before ([h]) and whatever the cache policy. *)
  Theorem modes_agree_gen : forall o lines st h,
    nonlast (fun l => ends_nl l = true) lines ->
    Forall (fun ch => parse o ch <> None) (chunks_of (needs_more o) [] lines) ->
    flow_ok (snd (run_parsed (parse o (concat lines)) (concat lines) 0 st)) ->
    let text := concat lines in
    let r := script_frontend o text st in
    dash_c_frontend h o text st = r /\
    eval_delivery h o text st = r /\
    source_delivery o text st = r /\
    stdin_frontend h o lines st = r.
  Proof.
    intros o lines st h Hl Hall Hfl text r. subst r text.
    unfold dash_c_frontend, eval_delivery, eval_builtin, eval_line_delta, source_delivery, dot_builtin, script_frontend.
    cbn [Nat.sub Nat.add].
    rewrite !parse_string_pure.
    split; [reflexivity|]. split; [reflexivity|]. split.
    - destruct (run_parsed (parse o (concat lines)) (concat lines) 0 st) as [st' fl]; reflexivity.
    - unfold stdin_frontend.
      pose proof (chunks_of_done o lines [] Hl) as Hd.
      destruct (parse_concat_chunks o _ Hd Hall) as (cs & Hcs & Hp).
      rewrite chunks_of_concat in Hp. cbn [app] in Hp. rewrite Hp in Hfl |- *. cbn [run_parsed] in Hfl |- *.
      now apply stdin_run_whole.
  Qed.
End Modes.
