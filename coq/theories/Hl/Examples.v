(** C19 — concrete inputs: non-vacuity of the hypotheses, and the two witnesses showing that the
    hypotheses are needed (both are replayed on the real code by the harness: known findings). *)
From Coq Require Import String.
From BV Require Import Base.Prelude Base.Codec Hl.Spans Hl.Spec Hl.Proofs.
Local Open Scope nat_scope.

Definition fl (s : string) : flags :=
  let b i := match nth_error (lit s) i with Some 49%N => true | _ => false end in
  mk_flags (b 0) (b 1) (b 2) (b 3) (b 4) (b 5) (b 6).
Definition text_word (sc ec : nat) (f : string) (len : nat) (rest : tokens) : tokens :=
  TWord sc ec (fl f) (PCons (PLeaf LText 0 len) PNil) rest.

(** echo "a $(ls é) b" # c   — nested substitution, a 2-byte char, a trailing comment *)
Definition ex_ok_line : str := lit "echo ""a $(ls " ++ [233%N] ++ lit ") b"" # c".
Definition ex_ok_tree : prog :=
  GToks (text_word 0 4 "0000110" 4
        (TWord 5 18 (fl "0000000")
           (PCons (PDq 0 14
              (PCons (PLeaf LText 1 3)
              (PCons (PCmd false 3 11 (lit "ls " ++ [233%N])
                        (GToks (text_word 0 2 "0000010" 2 (text_word 3 4 "0000000" 2 TNil))))
              (PCons (PLeaf LText 11 13) PNil)))) PNil)
        TNil)).

Lemma ex_ok : prog_ok ex_ok_line ex_ok_tree = 0 /\ forall clamp,
  highlight_gen clamp ex_ok_line 23 ex_ok_tree =
    Some [(0, 4, KBuiltin); (4, 5, KComment); (5, 6, KQuoted); (6, 8, KQuoted); (8, 10, KCmdSubst);
          (10, 12, KExternal); (12, 13, KCmdSubst); (13, 15, KDefault); (15, 16, KCmdSubst);
          (16, 18, KQuoted); (18, 19, KQuoted); (19, 23, KQuoted)].
Proof. split; [vm_compute; reflexivity | intros [|]; vm_compute; reflexivity]. Qed.

(** cat <<EOF / body / EOF : the tokenizer emits the here-doc body and end tag before the
    newline operator that precedes them in the line; the builder then overlaps. *)
Definition ex_heredoc_line : str := lit "cat <<EOF" ++ [NL] ++ lit "body" ++ [NL] ++ lit "EOF" ++ [NL].
Definition ex_heredoc_tree : prog :=
  GToks (text_word 0 3 "0000010" 3 (TOp 4 6 (text_word 6 9 "0000000" 3 (text_word 10 19 "0000000" 9
        (TWord 19 19 (fl "0000000") PNil (TOp 9 10 TNil)))))).

Lemma ex_heredoc : prog_ok ex_heredoc_line ex_heredoc_tree = 1 /\
  exists sp, highlight_gen false ex_heredoc_line 0 ex_heredoc_tree = Some sp /\ ~ spec ex_heredoc_line sp.
Proof.
  split; [vm_compute; reflexivity|]. eexists. split; [vm_compute; reflexivity|].
  intros H. apply spec_code_correct in H. vm_compute in H. discriminate.
Qed.

Lemma ex_heredoc_clamped :
  calls_aligned ex_heredoc_line (prog_calls 0 ex_heredoc_line 0 ex_heredoc_tree) = true /\
  highlight_gen true ex_heredoc_line 0 ex_heredoc_tree =
    Some [(0, 3, KUnknown); (3, 4, KComment); (4, 6, KOperator); (6, 9, KDefault); (9, 10, KComment);
          (10, 19, KDefault)].
Proof. split; vm_compute; reflexivity. Qed.

(** echo `\`é` : word.rs unescapes \` inside backquotes, so the nested command text "`é" is one
    byte shorter than its source and its end lands inside é: append_span's debug assertion fails *)
Definition ex_bq_line : str := lit "echo `\`" ++ [233%N] ++ lit "`".
Definition ex_bq_tree : prog :=
  GToks (text_word 0 4 "0000110" 4
        (TWord 5 10 (fl "0000000") (PCons (PCmd true 0 6 (lit "`" ++ [233%N]) GErr) PNil) TNil)).

Lemma ex_bq : prog_ok ex_bq_line ex_bq_tree = 4 /\
  forall clamp, highlight_gen clamp ex_bq_line 0 ex_bq_tree = None.
Proof. split; [vm_compute; reflexivity | intros [|]; vm_compute; reflexivity]. Qed.
