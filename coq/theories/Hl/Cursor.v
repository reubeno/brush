(** C19 — the cursor only influences kinds: the ranges of the spans do not depend on it.
    (Supports enumerating long lines with one cursor each: the property is about ranges.) *)
From BV Require Import Base.Prelude Hl.Spans Hl.Proofs.
Local Open Scope nat_scope.

Definition shape (c : call) : option (nat * nat) :=
  match c with Append _ s e => Some (s, e) | SetMissing _ => None end.
Definition range (x : span) : nat * nat := (sstart x, send x).

Lemma calls_shape c1 c2 :
  (forall p dk1 dk2 g, map shape (piece_calls c1 dk1 g p) = map shape (piece_calls c2 dk2 g p))
  /\ (forall ps dk1 dk2 g, map shape (pieces_calls c1 dk1 g ps) = map shape (pieces_calls c2 dk2 g ps))
  /\ (forall p line off, map shape (prog_calls c1 line off p) = map shape (prog_calls c2 line off p))
  /\ (forall ts line off saw1 saw2,
        map shape (toks_calls c1 line off saw1 ts) = map shape (toks_calls c2 line off saw2 ts)).
Proof.
  apply tree_mutind.
  - (* PLeaf *) intros l s e dk1 dk2 g. reflexivity.
  - (* PDq *) intros s e subs IH dk1 dk2 g. cbn [piece_calls map shape skip]. rewrite !map_app, (IH KQuoted KQuoted g). reflexivity.
  - (* PCmd *) intros bq s e cmd p IH dk1 dk2 g. cbn [piece_calls map shape skip]. rewrite !map_app, IH. reflexivity.
  - (* PNil *) reflexivity.
  - (* PCons *) intros p IHp ps IHps dk1 dk2 g. cbn [pieces_calls]. rewrite !map_app, (IHp dk1 dk2 g), (IHps dk1 dk2 g). reflexivity.
  - (* GErr *) reflexivity.
  - (* GToks *) intros ts IH line off. cbn [prog_calls]. rewrite !map_app, (IH line off false false). reflexivity.
  - (* TNil *) reflexivity.
  - (* TOp *) intros sc ec rest IH line off saw1 saw2. cbn [toks_calls map shape]. rewrite (IH line off saw1 saw2). reflexivity.
  - (* TWord *) intros sc ec f ps IHps rest IH line off saw1 saw2. cbn [toks_calls].
    destruct (kind_for_word c1 f _ _ saw1) as [dk1 s1]. destruct (kind_for_word c2 f _ _ saw2) as [dk2 s2].
    rewrite !map_app, (IHps dk1 dk2 _), (IH line off s1 s2). reflexivity.
  - (* TWordErr *) intros sc ec rest IH line off saw1 saw2. cbn [toks_calls]. apply IH.
Qed.

(** what of a builder state the ranges depend on *)
Definition proj (st : bst) : list (nat * nat) * nat := (map range (b_spans st), b_cur st).

Lemma push_range_same a b k1 k2 s e : proj a = proj b -> proj (push_range a k1 s e) = proj (push_range b k2 s e).
Proof.
  intros [= Hs Hc]. unfold proj, push_range. cbn [b_spans b_cur]. rewrite Hc. f_equal.
  destruct (b_cur b <? s); destruct (s <? e); rewrite ?map_app, ?Hs; reflexivity.
Qed.

Lemma step_same clamp top a b c1 c2 : proj a = proj b -> shape c1 = shape c2 ->
  option_map proj (step_gen clamp top a c1) = option_map proj (step_gen clamp top b c2).
Proof.
  intros Hab Hsh. destruct c1 as [k1 s1 e1 | k1]; destruct c2 as [k2 s2 e2 | k2]; try discriminate Hsh.
  - injection Hsh as -> ->. cbn [step_gen]. unfold append_span_gen.
    destruct (negb (is_boundary top s2)); [reflexivity|]. destruct (negb (is_boundary top e2)); [reflexivity|].
    cbn [option_map]. f_equal. pose proof Hab as [= _ Hc]. rewrite Hc. apply push_range_same. exact Hab.
  - cbn [step_gen option_map]. f_equal. exact Hab.
Qed.

Lemma run_same clamp top cs1 : forall cs2 a b, proj a = proj b -> map shape cs1 = map shape cs2 ->
  option_map proj (run_calls_gen clamp top a cs1) = option_map proj (run_calls_gen clamp top b cs2).
Proof.
  induction cs1 as [|c1 cs1 IH]; intros [|c2 cs2] a b Hab Hm; try discriminate Hm; cbn [run_calls_gen].
  - cbn [option_map]. f_equal. exact Hab.
  - injection Hm as H1 H2. pose proof (step_same clamp top a b c1 c2 Hab H1) as Hst.
    destruct (step_gen clamp top a c1) as [a'|]; destruct (step_gen clamp top b c2) as [b'|];
      cbn [option_map] in Hst; try discriminate Hst.
    + apply IH; [congruence | exact H2].
    + reflexivity.
Qed.

Theorem ranges_cursor_independent clamp top c1 c2 p :
  option_map (map range) (highlight_gen clamp top c1 p) = option_map (map range) (highlight_gen clamp top c2 p).
Proof.
  unfold highlight_gen. destruct (calls_shape c1 c2) as (_ & _ & Hp & _).
  pose proof (run_same clamp top _ _ bst0 bst0 eq_refl (Hp p top 0)) as H.
  destruct (run_calls_gen clamp top bst0 (prog_calls c1 top 0 p)) as [a|];
    destruct (run_calls_gen clamp top bst0 (prog_calls c2 top 0 p)) as [b|]; try discriminate H; [|reflexivity].
  injection H as H _. cbn [option_map]. f_equal. exact H.
Qed.
