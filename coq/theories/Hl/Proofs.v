(** C19 — the span builder of Hl/Spans.v satisfies the property of Hl/Spec.v: the calls made for
    a tree that passes [prog_ok] are ordered and aligned ([tree_ok_calls]); on such calls the
    builder keeps its spans contiguous, non-empty and on char boundaries ([run_calls_ok]); such
    spans reaching the end of the line have the whole property ([spec_core_spec]). *)
From Coq Require Import Sorted.
From BV Require Import Base.Prelude Hl.Spans Hl.Spec.
Local Open Scope nat_scope.

#[local] Arguments utf8_len : simpl never.

Scheme piece_mind := Induction for piece Sort Prop
  with pieces_mind := Induction for pieces Sort Prop
  with prog_mind := Induction for prog Sort Prop
  with tokens_mind := Induction for tokens Sort Prop.
Combined Scheme tree_mutind from piece_mind, pieces_mind, prog_mind, tokens_mind.

Lemma utf8_len_pos c : 1 <= utf8_len c.
Proof. unfold utf8_len. repeat match goal with |- context [if ?b then _ else _] => destruct b end; lia. Qed.

Lemma length_utf8_enc c : length (utf8_enc c) = utf8_len c.
Proof.
  unfold utf8_enc, utf8_len.
  repeat match goal with |- context [if ?b then _ else _] => destruct b end; reflexivity.
Qed.

Lemma utf8_app a b : utf8 (a ++ b) = utf8 a ++ utf8 b.
Proof. unfold utf8. apply flat_map_app. Qed.

Lemma blen_app a b : blen (a ++ b) = blen a + blen b.
Proof. induction a as [|c a IH]; cbn [blen app]; [reflexivity | rewrite IH; lia]. Qed.

Lemma length_utf8 s : length (utf8 s) = blen s.
Proof.
  induction s as [|c s IH]; [reflexivity|].
  change (utf8 (c :: s)) with (utf8_enc c ++ utf8 s).
  rewrite app_length, length_utf8_enc, IH. reflexivity.
Qed.

Lemma is_cont_low b : (b < 128)%N -> is_cont b = false.
Proof. intros H. unfold is_cont. apply N.leb_gt in H. rewrite H. reflexivity. Qed.

Lemma is_cont_lead a x : (192 <=? a)%N = true -> is_cont (a + x)%N = false.
Proof.
  intros H. apply N.leb_le in H. unfold is_cont. apply andb_false_iff. right. apply N.ltb_ge.
  apply (N.le_trans _ _ _ H), N.le_add_r.
Qed.

Lemma is_cont_mod x : is_cont (128 + x mod 64)%N = true.
Proof.
  pose proof (N.mod_lt x 64 ltac:(discriminate)) as H. revert H. generalize (x mod 64)%N. intros m H.
  unfold is_cont. destruct (N.leb_spec 128 (128 + m)), (N.ltb_spec (128 + m) 192); try reflexivity; lia.
Qed.

Lemma utf8_enc_shape c :
  exists b r, utf8_enc c = b :: r /\ is_cont b = false /\ Forall (fun x => is_cont x = true) r.
Proof.
  unfold utf8_enc.
  destruct (N.ltb_spec c 128) as [H|_].
  { exists c, []. split; [reflexivity|]. split; [exact (is_cont_low c H) | constructor]. }
  destruct (c <? 2048)%N; [|destruct (c <? 65536)%N];
    eexists _, _; (split; [reflexivity|]); (split; [apply is_cont_lead; reflexivity|]);
    repeat constructor; apply is_cont_mod.
Qed.

(** [b] is the byte length of a prefix (in characters) of [line] *)
Definition bnd (line : str) (b : nat) : Prop := exists a c, line = a ++ c /\ blen a = b.

Lemma bnd_0 line : bnd line 0.
Proof. exists [], line. split; reflexivity. Qed.

Lemma bnd_len line : bnd line (blen line).
Proof. exists line, []. split; [symmetry; apply app_nil_r | reflexivity]. Qed.

Lemma bnd_le line b : bnd line b -> b <= blen line.
Proof. intros (a & c & -> & <-). rewrite blen_app. lia. Qed.

Lemma nth_error_offsets_from s : forall b i,
  nth_error (offsets_from b s) i = if i <=? length s then Some (b + blen (firstn i s)) else None.
Proof.
  induction s as [|c s IH]; intros b i.
  - destruct i as [|i]; cbn; [f_equal; lia|]. destruct i; reflexivity.
  - destruct i as [|i]; cbn [offsets_from nth_error length firstn blen].
    + cbn. f_equal. lia.
    + rewrite IH. change (S i <=? S (length s)) with (i <=? length s).
      destruct (i <=? length s); [f_equal; lia | reflexivity].
Qed.

Lemma byte_offset_firstn line ci : byte_offset line ci = blen (firstn ci line).
Proof.
  unfold byte_offset, offsets. rewrite nth_error_offsets_from.
  destruct (ci <=? length line) eqn:E; [reflexivity|].
  apply Nat.leb_gt in E. rewrite firstn_all2 by lia. reflexivity.
Qed.

Lemma bnd_firstn line n : bnd line (blen (firstn n line)).
Proof. exists (firstn n line), (skipn n line). split; [symmetry; apply firstn_skipn | reflexivity]. Qed.

Lemma bnd_byte_offset line ci : bnd line (byte_offset line ci).
Proof. rewrite byte_offset_firstn. apply bnd_firstn. Qed.

Lemma blen_firstn_mono l : forall i j, i <= j -> blen (firstn i l) <= blen (firstn j l).
Proof.
  induction l as [|c l IH]; intros i j Hij.
  - rewrite !firstn_nil. lia.
  - destruct i as [|i]; [cbn; lia|]. destruct j as [|j]; [lia|].
    cbn [firstn blen]. specialize (IH i j). lia.
Qed.

Lemma byte_offset_mono line i j : i <= j -> byte_offset line i <= byte_offset line j.
Proof. intros H. rewrite !byte_offset_firstn. apply blen_firstn_mono. exact H. Qed.

Lemma byte_offset_le line i : byte_offset line i <= blen line.
Proof. apply bnd_le, bnd_byte_offset. Qed.

Lemma byte_offset_0 line : byte_offset line 0 = 0.
Proof. rewrite byte_offset_firstn. reflexivity. Qed.

Lemma is_boundary_bnd line i : is_boundary line i = true <-> bnd line i.
Proof.
  unfold is_boundary, offsets. rewrite existsb_exists. split.
  - intros (x & Hin & Hx). apply Nat.eqb_eq in Hx. subst x.
    apply In_nth_error in Hin as [n Hn]. rewrite nth_error_offsets_from in Hn.
    destruct (n <=? length line); [|discriminate]. injection Hn as <-. apply bnd_firstn.
  - intros (a & c & -> & <-). exists (blen a). split; [|apply Nat.eqb_refl].
    apply (nth_error_In _ (length a)). rewrite nth_error_offsets_from.
    rewrite app_length, (proj2 (Nat.leb_le _ _) (Nat.le_add_r _ _)).
    rewrite firstn_app, Nat.sub_diag, firstn_all, firstn_O, app_nil_r. reflexivity.
Qed.

(** in the sense of [str::is_char_boundary] *)
Lemma bnd_is_cb line i : bnd line i -> is_cb (utf8 line) i = true.
Proof.
  intros (a & c & -> & <-). unfold is_cb.
  destruct (blen a =? 0) eqn:E0; [reflexivity|].
  rewrite utf8_app, nth_error_app2 by (rewrite length_utf8; lia).
  rewrite length_utf8, Nat.sub_diag.
  destruct c as [|ch c].
  - cbn. rewrite app_nil_r, length_utf8. apply Nat.eqb_refl.
  - change (utf8 (ch :: c)) with (utf8_enc ch ++ utf8 c).
    destruct (utf8_enc_shape ch) as (b & r & -> & Hb & _). cbn. rewrite Hb. reflexivity.
Qed.

Lemma is_cb_bnd line : forall i, is_cb (utf8 line) i = true -> bnd line i.
Proof.
  induction line as [|ch l IH]; intros i H.
  - destruct i; [apply bnd_0 | discriminate H].
  - unfold is_cb in H. destruct (i =? 0) eqn:E0.
    { apply Nat.eqb_eq in E0. subst. apply bnd_0. }
    apply Nat.eqb_neq in E0.
    change (utf8 (ch :: l)) with (utf8_enc ch ++ utf8 l) in H.
    destruct (Nat.lt_ge_cases i (utf8_len ch)) as [Hlt | Hge].
    + (* inside the encoding of [ch]: a continuation byte *)
      exfalso. pose proof (length_utf8_enc ch) as Hl.
      rewrite nth_error_app1 in H by lia.
      destruct (utf8_enc_shape ch) as (b & r & Hs & _ & Hr). rewrite Hs in H, Hl.
      destruct i as [|i]; [lia|]. cbn in H.
      destruct (nth_error r i) eqn:En.
      * apply nth_error_In in En. rewrite Forall_forall in Hr. rewrite (Hr _ En) in H. discriminate.
      * apply nth_error_None in En. cbn in Hl. lia.
    + pose proof (length_utf8_enc ch) as Hl.
      rewrite nth_error_app2 in H by lia. rewrite Hl, app_length, Hl in H.
      assert (Hb : bnd l (i - utf8_len ch)).
      { apply IH. unfold is_cb. destruct (i - utf8_len ch =? 0) eqn:E1; [reflexivity|].
        destruct (nth_error (utf8 l) (i - utf8_len ch)); [exact H|].
        apply Nat.eqb_eq in H. apply Nat.eqb_eq. lia. }
      destruct Hb as (a & c & -> & Hb). exists (ch :: a), c. split; [reflexivity|]. cbn [blen]. lia.
Qed.

Lemma is_boundary_is_cb line i : is_boundary line i = is_cb (utf8 line) i.
Proof.
  destruct (is_cb (utf8 line) i) eqn:E.
  - apply is_boundary_bnd, is_cb_bnd, E.
  - destruct (is_boundary line i) eqn:E2; [|reflexivity].
    apply is_boundary_bnd, bnd_is_cb in E2. congruence.
Qed.

Lemma contiguous_bounds bs sp : forall a b, contiguous a sp b -> Forall (span_valid bs) sp ->
  a <= b /\ forall x, In x sp -> a <= sstart x /\ send x <= b.
Proof.
  induction sp as [|y r IH]; intros a b Hc Hv; cbn [contiguous] in Hc.
  - subst. split; [lia | intros x []].
  - destruct Hc as [Hs Hc]. inversion Hv as [|? ? [Hy _] Hr]; subst.
    destruct (IH _ _ Hc Hr) as [Hab Hin]. split; [lia|].
    intros x [<- | Hx]; [lia|]. specialize (Hin x Hx). lia.
Qed.

Lemma contiguous_snoc sp : forall a x b,
  contiguous a (sp ++ [x]) b <-> contiguous a sp (sstart x) /\ send x = b.
Proof.
  induction sp as [|y r IH]; intros a x b; cbn [app contiguous].
  - split; intros [H1 H2]; split; congruence.
  - rewrite IH. tauto.
Qed.

Lemma firstn_skipn_add {A} (l : list A) : forall n m, firstn n l ++ firstn m (skipn n l) = firstn (n + m) l.
Proof.
  induction l as [|x l IH]; intros n m.
  - rewrite skipn_nil, !firstn_nil. reflexivity.
  - destruct n as [|n]; [reflexivity|]. cbn [firstn skipn plus app]. rewrite IH. reflexivity.
Qed.

Lemma text_valid bs x : span_valid bs x -> text bs x = slice bs (sstart x) (send x).
Proof.
  intros (H1 & H2 & H3 & H4). unfold text, get.
  rewrite H3, H4. apply Nat.leb_le in H1, H2. rewrite H1, H2. reflexivity.
Qed.

Lemma render_contiguous bs sp : forall a b, contiguous a sp b -> Forall (span_valid bs) sp ->
  firstn a bs ++ render bs sp = firstn b bs.
Proof.
  induction sp as [|x r IH]; intros a b Hc Hv; cbn [contiguous] in Hc.
  - subst. apply app_nil_r.
  - destruct Hc as [<- Hc]. inversion Hv as [|? ? Hx Hr]; subst.
    unfold render in *. cbn [flat_map]. rewrite app_assoc, text_valid by exact Hx.
    unfold slice. rewrite firstn_skipn_add, Nat.add_comm, Nat.sub_add by apply Hx.
    apply IH; assumption.
Qed.

Lemma contiguous_sorted bs sp : forall a b, contiguous a sp b -> Forall (span_valid bs) sp ->
  StronglySorted (fun x y => send x <= sstart y) sp.
Proof.
  induction sp as [|x r IH]; intros a b Hc Hv; [constructor|].
  cbn [contiguous] in Hc. destruct Hc as [Hs Hc]. inversion Hv as [|? ? Hx Hr]; subst.
  constructor; [eapply IH; eassumption|].
  destruct (contiguous_bounds _ _ _ _ Hc Hr) as [_ Hin].
  apply Forall_forall. intros y Hy. apply Hin, Hy.
Qed.

Lemma contiguous_covers sp : forall a b, contiguous a sp b ->
  forall i, a <= i < b -> exists x, In x sp /\ sstart x <= i < send x.
Proof.
  induction sp as [|x r IH]; intros a b Hc i Hi; cbn [contiguous] in Hc.
  - lia.
  - destruct Hc as [Hs Hc]. destruct (Nat.lt_ge_cases i (send x)) as [Hlt | Hge].
    + exists x. split; [left; reflexivity | lia].
    + destruct (IH _ _ Hc i) as (y & Hy & Hyi); [lia|]. exists y. split; [right; exact Hy | exact Hyi].
Qed.

Theorem spec_core_spec line sp : spec_core line sp -> spec line sp.
Proof.
  intros [Hv Hc]. unfold spec.
  split; [exact Hv|]. split; [eapply contiguous_sorted; eassumption|]. split; [exact Hc|]. split.
  - intros i Hi. eapply contiguous_covers; [exact Hc | lia].
  - pose proof (render_contiguous _ _ _ _ Hc Hv) as H. rewrite firstn_all in H. exact H.
Qed.

Lemma spec_spec_core line sp : spec line sp -> spec_core line sp.
Proof. intros (H1 & _ & H3 & _). split; assumption. Qed.

Lemma andc_0 a b : andc a b = 0 <-> a = 0 /\ b = 0.
Proof. unfold andc. destruct a; cbn; [tauto | split; [discriminate | intros [H _]; discriminate]]. Qed.

Lemma chk_0 b n : chk b (S n) = 0 <-> b = true.
Proof. unfold chk. destruct b; split; congruence. Qed.

Lemma valid_code_0 bs x : valid_code bs x = 0 <-> span_valid bs x.
Proof.
  unfold valid_code, span_valid. rewrite !andc_0, !chk_0, !Nat.leb_le. tauto.
Qed.

Lemma contig_code_0 bs sp : forall a,
  contig_code bs a sp = 0 <-> Forall (span_valid bs) sp /\ contiguous a sp (length bs).
Proof.
  induction sp as [|x r IH]; intros a; cbn [contig_code contiguous].
  - rewrite chk_0, Nat.eqb_eq. split; [intros H; split; [constructor | exact H] | intros [_ H]; exact H].
  - rewrite !andc_0, chk_0, valid_code_0, IH, Nat.eqb_eq. split.
    + intros (H1 & H2 & H3 & H4). split; [constructor; assumption | split; assumption].
    + intros (H1 & H2 & H3). inversion H1; subst. tauto.
Qed.

(** the decidable form used by the runner *)
Theorem spec_code_correct line sp : spec_code line sp = 0 <-> spec line sp.
Proof.
  unfold spec_code. rewrite contig_code_0. split.
  - intros H. apply spec_core_spec. exact H.
  - apply spec_spec_core.
Qed.

Definition good (top : str) (x : span) : Prop :=
  sstart x < send x /\ bnd top (sstart x) /\ bnd top (send x).

(** started with the cursor at [cur], the calls [cs] are ordered and on char boundaries of [top] *)
Fixpoint wf_calls (top : str) (cur : nat) (cs : list call) : Prop :=
  match cs with
  | [] => True
  | Append _ s e :: r => cur <= s /\ s <= e /\ bnd top s /\ bnd top e /\ wf_calls top e r
  | SetMissing _ :: r => wf_calls top cur r
  end.

Fixpoint end_cur (cur : nat) (cs : list call) : nat :=
  match cs with
  | [] => cur
  | Append _ _ e :: r => end_cur e r
  | SetMissing _ :: r => end_cur cur r
  end.

Lemma wf_calls_app top a : forall cur b,
  wf_calls top cur (a ++ b) <-> wf_calls top cur a /\ wf_calls top (end_cur cur a) b.
Proof.
  induction a as [|c a IH]; intros cur b; cbn [app wf_calls end_cur]; [tauto|].
  destruct c as [k s e | k]; rewrite IH; tauto.
Qed.

Lemma end_cur_app a : forall cur b, end_cur cur (a ++ b) = end_cur (end_cur cur a) b.
Proof.
  induction a as [|c a IH]; intros cur b; cbn [app end_cur]; [reflexivity|].
  destruct c; apply IH.
Qed.

(** Segments compose like the call lists they describe, so the proof about a tree follows the
    shape of [piece_calls]. *)
Definition seg (top : str) (a : nat) (cs : list call) (b : nat) : Prop :=
  wf_calls top a cs /\ end_cur a cs = b.

Lemma seg_nil top a : seg top a [] a.
Proof. split; [exact I | reflexivity]. Qed.

Lemma seg_app top a cs1 b cs2 c : seg top a cs1 b -> seg top b cs2 c -> seg top a (cs1 ++ cs2) c.
Proof. intros [H1 <-] [H2 <-]. split; [apply wf_calls_app; split; assumption | apply end_cur_app]. Qed.

Lemma seg_append top a k s e cs b : a <= s -> s <= e -> bnd top s -> bnd top e ->
  seg top e cs b -> seg top a (Append k s e :: cs) b.
Proof. intros H1 H2 Hs He [Hw Hb]. split; [repeat split; assumption | exact Hb]. Qed.

Lemma seg_skip top a d cs b : a <= d -> bnd top d -> seg top d cs b -> seg top a (skip d :: cs) b.
Proof. intros H Hd. apply seg_append; [exact H | apply Nat.le_refl | exact Hd | exact Hd]. Qed.

Lemma seg_set top a k cs b : seg top a cs b -> seg top a (SetMissing k :: cs) b.
Proof. unfold seg. cbn [wf_calls end_cur]. intros H. exact H. Qed.

(** the calls of a quoted or substituted piece: its inner calls between two skips *)
Lemma seg_bracket top a k s e inner b :
  a <= s -> bnd top s -> bnd top e -> seg top s inner b -> b <= e ->
  seg top a (skip s :: SetMissing k :: inner ++ [SetMissing k; skip e]) e.
Proof.
  intros Ha Bs Be Hin Hb. apply seg_skip; [exact Ha | exact Bs |]. apply seg_set, (seg_app _ _ _ b); [exact Hin|].
  apply seg_set, seg_skip; [exact Hb | exact Be | apply seg_nil].
Qed.

(** the builder's spans so far tile [0, cursor) *)
Definition inv (top : str) (st : bst) : Prop :=
  contiguous 0 (b_spans st) (b_cur st) /\ Forall (good top) (b_spans st) /\ bnd top (b_cur st).

(** [push_range] appends up to two spans, each only if it is not empty *)
Definition add_span (sp : list span) (a b : nat) (k : kind) : list span :=
  if a <? b then sp ++ [(a, b, k)] else sp.

Lemma push_range_add_span st k s e :
  push_range st k s e =
  mk_bst (add_span (add_span (b_spans st) (b_cur st) s (match b_nmk st with Some m => m | None => KComment end)) s e k)
         e (b_nmk st).
Proof. reflexivity. Qed.

Lemma add_span_ok top sp a b k :
  contiguous 0 sp a -> Forall (good top) sp -> a <= b -> bnd top a -> bnd top b ->
  contiguous 0 (add_span sp a b k) b /\ Forall (good top) (add_span sp a b k).
Proof.
  intros Hc Hg Hab Ha Hb. unfold add_span. destruct (Nat.ltb_spec a b) as [Hlt|Hge].
  - split; [apply contiguous_snoc; split; [exact Hc | reflexivity]|].
    apply Forall_app. split; [exact Hg|]. repeat constructor; assumption.
  - replace b with a by lia. split; assumption.
Qed.

Lemma push_range_ok top st k s e :
  inv top st -> b_cur st <= s -> s <= e -> bnd top s -> bnd top e ->
  inv top (push_range st k s e) /\ b_cur (push_range st k s e) = e.
Proof.
  intros (Hc & Hg & Hb) H1 H2 Hs He. rewrite push_range_add_span. split; [|reflexivity].
  destruct (add_span_ok top _ _ s (match b_nmk st with Some m => m | None => KComment end) Hc Hg H1 Hb Hs)
    as [Hc1 Hg1].
  destruct (add_span_ok top _ _ e k Hc1 Hg1 H2 Hs He) as [Hc2 Hg2].
  exact (conj Hc2 (conj Hg2 He)).
Qed.

(** on aligned positions the assertions pass, and the clamp to the line's length does nothing *)
Lemma append_span_gen_aligned clamp top st k s e : bnd top s -> bnd top e ->
  append_span_gen clamp top st k s e =
  let s' := if clamp then Nat.max s (b_cur st) else s in
  Some (push_range st k s' (if clamp then Nat.max e s' else e)).
Proof.
  intros Hs He. unfold append_span_gen.
  rewrite (proj2 (is_boundary_bnd _ _) Hs), (proj2 (is_boundary_bnd _ _) He). cbn [negb].
  rewrite (Nat.min_l s), (Nat.min_l e) by (apply bnd_le; assumption). reflexivity.
Qed.

Lemma append_span_ok clamp top st k s e :
  inv top st -> b_cur st <= s -> s <= e -> bnd top s -> bnd top e ->
  exists st', append_span_gen clamp top st k s e = Some st' /\ inv top st' /\ b_cur st' = e.
Proof.
  intros Hi H1 H2 Hs He. rewrite append_span_gen_aligned by assumption. cbv zeta.
  replace (if clamp then Nat.max s (b_cur st) else s) with s by (destruct clamp; lia).
  replace (if clamp then Nat.max e s else e) with e by (destruct clamp; lia).
  eexists. split; [reflexivity|]. apply push_range_ok; assumption.
Qed.

Theorem run_calls_ok clamp top cs : forall st b,
  inv top st -> seg top (b_cur st) cs b ->
  exists st', run_calls_gen clamp top st cs = Some st' /\ inv top st' /\ b_cur st' = b.
Proof.
  induction cs as [|c cs IH]; intros st b Hi [Hw Hb]; cbn [run_calls_gen].
  - exists st. auto.
  - destruct c as [k s e | k]; cbn [step_gen wf_calls end_cur] in *.
    + destruct Hw as (H1 & H2 & H3 & H4 & Hw).
      destruct (append_span_ok clamp top st k s e Hi H1 H2 H3 H4) as (st1 & -> & Hi1 & Hc1).
      apply IH; [exact Hi1 | rewrite Hc1; split; assumption].
    + exact (IH (mk_bst (b_spans st) (b_cur st) (Some k)) b Hi (conj Hw Hb)).
Qed.

Lemma bnd_max top a b : bnd top a -> bnd top b -> bnd top (Nat.max a b).
Proof. intros Ha Hb. destruct (Nat.max_spec a b) as [[_ ->] | [_ ->]]; assumption. Qed.

Lemma append_span_clamped_ok top st k s e :
  inv top st -> b_cur st <= blen top -> bnd top s -> bnd top e ->
  exists st', append_span_gen true top st k s e = Some st' /\ inv top st'
    /\ b_cur st <= b_cur st' <= blen top /\ (blen top <= e -> b_cur st' = blen top).
Proof.
  intros Hi Hn Hs He. rewrite append_span_gen_aligned by assumption. cbv zeta.
  pose proof (bnd_le _ _ Hs). pose proof (bnd_le _ _ He).
  assert (Bs : bnd top (Nat.max s (b_cur st))) by (apply bnd_max; [exact Hs | apply Hi]).
  assert (Be : bnd top (Nat.max e (Nat.max s (b_cur st)))) by (apply bnd_max; assumption).
  destruct (push_range_ok top st k _ _ Hi (Nat.le_max_r _ _) (Nat.le_max_r _ _) Bs Be) as [Hi' Hc'].
  eexists. split; [reflexivity|]. split; [exact Hi'|]. rewrite Hc'. split; lia.
Qed.

Lemma calls_aligned_cons top c cs :
  calls_aligned top (c :: cs) = true <-> call_aligned top c = true /\ calls_aligned top cs = true.
Proof. unfold calls_aligned. cbn [forallb]. apply andb_true_iff. Qed.

Definition reaches_end (top : str) (c : call) : Prop :=
  match c with Append _ _ e => blen top <= e | SetMissing _ => False end.

(** the cursor never moves back nor passes the end of the line, so one call that asks for the
    end, wherever it stands, leaves it there *)
Theorem run_calls_clamped_ok top cs : forall st,
  inv top st -> b_cur st <= blen top -> calls_aligned top cs = true ->
  exists st', run_calls_gen true top st cs = Some st' /\ inv top st' /\ b_cur st <= b_cur st' <= blen top
    /\ (Exists (reaches_end top) cs -> b_cur st' = blen top).
Proof.
  induction cs as [|c cs IH]; intros st Hi Hn Ha; cbn [run_calls_gen].
  - exists st. split; [reflexivity | split; [exact Hi | split; [lia | intros H; inversion H]]].
  - apply calls_aligned_cons in Ha. destruct Ha as [Hc Ha].
    destruct c as [k s e | k]; cbn [step_gen call_aligned] in *.
    + apply andb_true_iff in Hc. destruct Hc as [Hs He]. apply is_boundary_bnd in Hs, He.
      destruct (append_span_clamped_ok top st k s e Hi Hn Hs He) as (st1 & -> & Hi1 & Hb1 & Hfin1).
      destruct (IH st1 Hi1 (proj2 Hb1) Ha) as (st' & Hr & Hi' & Hb' & Hfin). exists st'.
      split; [exact Hr | split; [exact Hi' | split; [lia|]]].
      intros H. inversion H as [? ? Hend | ? ? Hex]; subst; [specialize (Hfin1 Hend); lia | exact (Hfin Hex)].
    + destruct (IH (mk_bst (b_spans st) (b_cur st) (Some k)) Hi Hn Ha) as (st' & Hr & Hi' & Hb' & Hfin).
      exists st'. split; [exact Hr | split; [exact Hi' | split; [exact Hb'|]]].
      intros H. inversion H as [? ? Hend | ? ? Hex]; subst; [destruct Hend | exact (Hfin Hex)].
Qed.

Lemma run_calls_gen_app clamp top a : forall st b,
  run_calls_gen clamp top st (a ++ b) =
  match run_calls_gen clamp top st a with Some st' => run_calls_gen clamp top st' b | None => None end.
Proof.
  induction a as [|c a IH]; intros st b; cbn [app run_calls_gen]; [reflexivity|].
  destruct (step_gen clamp top st c); [apply IH | reflexivity].
Qed.

Lemma calls_aligned_app top a b :
  calls_aligned top (a ++ b) = true <-> calls_aligned top a = true /\ calls_aligned top b = true.
Proof. unfold calls_aligned. rewrite forallb_app. apply andb_true_iff. Qed.

Lemma good_valid top x : good top x -> send x <= blen top -> span_valid (utf8 top) x.
Proof.
  intros (H1 & H2 & H3) H4. unfold span_valid. rewrite length_utf8.
  split; [lia|]. split; [exact H4|]. split; apply bnd_is_cb; assumption.
Qed.

Lemma inv_spec top st : inv top st -> b_cur st = blen top -> spec top (b_spans st).
Proof.
  intros (Hc & Hg & _) He. apply spec_core_spec. rewrite He in Hc. split.
  - apply Forall_forall. intros x Hx. rewrite Forall_forall in Hg.
    apply good_valid; [apply Hg, Hx|]. apply bnd_le. apply (Hg x Hx).
  - rewrite length_utf8. exact Hc.
Qed.

(** [line] occurs in [top] at byte offset [off] *)
Definition emb (top : str) (off : nat) (line : str) : Prop :=
  exists pre post, top = pre ++ line ++ post /\ blen pre = off.

Lemma emb_refl top : emb top 0 top.
Proof. exists [], []. split; [rewrite app_nil_r; reflexivity | reflexivity]. Qed.

Lemma emb_bnd top off line b : emb top off line -> bnd line b -> bnd top (off + b).
Proof.
  intros (pre & post & -> & <-) (a & c & -> & <-).
  exists (pre ++ a), (c ++ post). split; [rewrite <- !app_assoc; reflexivity | apply blen_app].
Qed.

Lemma emb_trans top off line p cmd : emb top off line -> emb line p cmd -> emb top (off + p) cmd.
Proof.
  intros (pre & post & -> & <-) (pre' & post' & -> & <-).
  exists (pre ++ pre'), (post' ++ post). split; [rewrite <- !app_assoc; reflexivity | apply blen_app].
Qed.

Lemma starts_with_app p : forall s, starts_with p s = true -> exists post, s = p ++ post.
Proof.
  induction p as [|x p IH]; intros s H; cbn [starts_with] in H.
  - exists s. reflexivity.
  - destruct s as [|y s]; [discriminate|]. apply andb_true_iff in H. destruct H as [H1 H2].
    apply N.eqb_eq in H1. subst y. destruct (IH _ H2) as (post & ->). exists post. reflexivity.
Qed.

Lemma starts_with_emb line cmd : starts_with cmd line = true -> emb line 0 cmd.
Proof. intros H. destruct (starts_with_app _ _ H) as (post & ->). exists [], post. split; reflexivity. Qed.

Lemma embb_sound line : forall p cmd, embb line p cmd = true -> emb line p cmd.
Proof.
  induction line as [|c l IH]; intros p cmd H; cbn [embb] in H;
    (destruct (Nat.eqb_spec p 0) as [->|_]; [exact (starts_with_emb _ _ H)|]); [discriminate|].
  apply andb_true_iff in H. destruct H as [H1 H2]. apply Nat.leb_le in H1.
  destruct (IH _ _ H2) as (pre & post & -> & Hb).
  exists (c :: pre), post. split; [reflexivity|]. cbn [blen]. lia.
Qed.

Lemma range_ok_0 line sb lo hi s e : range_ok line sb lo hi s e = 0 <->
  (lo <= s /\ s <= e /\ e <= hi) /\ bnd line (sb + s) /\ bnd line (sb + e).
Proof.
  unfold range_ok. rewrite andc_0, !chk_0, !andb_true_iff, !Nat.leb_le, !is_boundary_bnd. tauto.
Qed.

Section Tree.
  Variable top : str.
  Variable cursor : nat.

  (** [line] is the text of the (possibly nested) command being highlighted; [sb] is the byte at
      which the current word starts in [line]; piece indices are relative to the word and must
      fall in the window [lo .. hi], which shrinks as pieces are consumed; [cur] is the builder's
      cursor on entry, [c] the char index up to which tokens are consumed. *)
  Definition P_piece (p : piece) : Prop := forall line off sb lo hi dk cur,
    emb top off line -> piece_ok line sb lo hi p = 0 -> cur <= off + sb + lo ->
    seg top cur (piece_calls cursor dk (off + sb) p) (off + sb + piece_end p)
    /\ lo <= piece_end p <= hi.

  Definition P_pieces (ps : pieces) : Prop := forall line off sb lo hi dk cur,
    emb top off line -> pieces_ok line sb lo hi ps = 0 -> cur <= off + sb + lo ->
    exists b, seg top cur (pieces_calls cursor dk (off + sb) ps) b /\ b <= off + sb + hi.

  Definition P_prog (p : prog) : Prop := forall line off cur,
    emb top off line -> prog_ok line p = 0 -> cur <= off ->
    seg top cur (prog_calls cursor line off p) (off + blen line).

  Definition P_toks (ts : tokens) : Prop := forall line off c saw cur,
    emb top off line -> toks_ok line c ts = 0 -> cur <= off + byte_offset line c ->
    exists b, seg top cur (toks_calls cursor line off saw ts) b /\ b <= off + blen line.

  Lemma bnd_shift line off sb x : emb top off line -> bnd line (sb + x) -> bnd top (off + sb + x).
  Proof. intros He Hb. rewrite <- Nat.add_assoc. eapply emb_bnd; eassumption. Qed.

  Lemma tree_ok_calls :
    (forall p, P_piece p) /\ (forall ps, P_pieces ps) /\ (forall p, P_prog p) /\ (forall ts, P_toks ts).
  Proof.
    apply tree_mutind.
    - (* PLeaf *)
      intros l s e line off sb lo hi dk cur He Hok Hcur. cbn [piece_ok] in Hok.
      apply range_ok_0 in Hok as (Hr & Bs & Be). apply (bnd_shift _ _ _ _ He) in Bs, Be.
      cbn [piece_calls piece_end]. split; [|lia].
      apply seg_skip; [lia | exact Bs |]. apply seg_append; [lia | lia | exact Bs | exact Be |].
      apply seg_skip; [lia | exact Be | apply seg_nil].
    - (* PDq *)
      intros s e subs IH line off sb lo hi dk cur He Hok Hcur. cbn [piece_ok] in Hok.
      rewrite andc_0, range_ok_0 in Hok. destruct Hok as ((Hr & Bs & Be) & Hsub).
      apply (bnd_shift _ _ _ _ He) in Bs, Be.
      destruct (IH line off sb s e KQuoted (off + sb + s) He Hsub (Nat.le_refl _)) as (b & Hseg & Hb).
      cbn [piece_calls piece_end]. split; [|lia].
      eapply seg_bracket; [| exact Bs | exact Be | exact Hseg |]; lia.
    - (* PCmd *)
      intros bq s e cmd p' IH line off sb lo hi dk cur He Hok Hcur. cbn [piece_ok] in Hok.
      rewrite !andc_0, range_ok_0, !chk_0, Nat.leb_le in Hok.
      destruct Hok as ((Hr & Bs & Be) & Hemb & Hlen & Hp). apply (bnd_shift _ _ _ _ He) in Bs, Be.
      set (d := if bq then 1 else 2) in *.
      pose proof (emb_trans _ _ _ _ _ He (embb_sound _ _ _ Hemb)) as He'. rewrite !Nat.add_assoc in He'.
      specialize (IH cmd (off + sb + s + d) (off + sb + s) He' Hp (Nat.le_add_r _ _)).
      cbn [piece_calls piece_end]. fold d. split; [|lia].
      eapply seg_bracket; [| exact Bs | exact Be | exact IH |]; lia.
    - (* PNil *)
      intros line off sb lo hi dk cur He Hok Hcur. cbn [pieces_ok] in Hok.
      apply chk_0, Nat.leb_le in Hok. exists cur. split; [apply seg_nil | lia].
    - (* PCons *)
      intros p IHp ps IHps line off sb lo hi dk cur He Hok Hcur. cbn [pieces_ok] in Hok.
      apply andc_0 in Hok as [Hp Hps]. destruct (IHp line off sb lo hi dk cur He Hp Hcur) as [Hseg _].
      destruct (IHps line off sb (piece_end p) hi dk _ He Hps (Nat.le_refl _)) as (b & Hseg' & Hb).
      exists b. split; [exact (seg_app _ _ _ _ _ _ Hseg Hseg') | exact Hb].
    - (* GErr *)
      intros line off cur He _ Hcur. cbn [prog_calls].
      pose proof (emb_bnd _ _ _ _ He (bnd_0 line)) as B0. rewrite Nat.add_0_r in B0.
      apply seg_append; [exact Hcur | lia | exact B0 | exact (emb_bnd _ _ _ _ He (bnd_len line)) | apply seg_nil].
    - (* GToks *)
      intros ts IH line off cur He Hok Hcur. cbn [prog_ok] in Hok.
      destruct (IH line off 0 false cur He Hok) as (b & Hseg & Hb); [rewrite byte_offset_0; lia|].
      cbn [prog_calls]. apply (seg_app _ _ _ _ _ _ Hseg).
      apply seg_skip; [exact Hb | exact (emb_bnd _ _ _ _ He (bnd_len line)) | apply seg_nil].
    - (* TNil *)
      intros line off c saw cur He _ Hcur. pose proof (byte_offset_le line c).
      exists cur. split; [apply seg_nil | lia].
    - (* TOp *)
      intros sc ec rest IH line off c saw cur He Hok Hcur. cbn [toks_ok] in Hok.
      rewrite andc_0, chk_0, andb_true_iff, !Nat.leb_le in Hok. destruct Hok as ((Ho1 & Ho2) & Hrest).
      apply (byte_offset_mono line) in Ho1, Ho2.
      destruct (IH line off ec saw _ He Hrest (Nat.le_refl _)) as (b & Hseg & Hb).
      exists b. split; [|exact Hb]. cbn [toks_calls].
      apply seg_append; [lia | lia | | | exact Hseg]; apply (emb_bnd _ _ _ _ He), bnd_byte_offset.
    - (* TWord *)
      intros sc ec f ps IHps rest IH line off c saw cur He Hok Hcur. cbn [toks_ok] in Hok.
      rewrite !andc_0, chk_0, andb_true_iff, !Nat.leb_le in Hok. destruct Hok as ((Ho1 & Ho2) & Hps & Hrest).
      apply (byte_offset_mono line) in Ho1, Ho2. cbn [toks_calls].
      destruct (kind_for_word cursor f (off + byte_offset line sc) (off + byte_offset line ec) saw) as [dk saw'].
      destruct (IHps line off (byte_offset line sc) 0 _ dk cur He Hps) as (b & Hseg & Hb); [lia|].
      destruct (IH line off ec saw' b He Hrest) as (b' & Hseg' & Hb'); [lia|].
      exists b'. split; [exact (seg_app _ _ _ _ _ _ Hseg Hseg') | exact Hb'].
    - (* TWordErr *)
      intros sc ec rest IH line off c saw cur He Hok Hcur. exact (IH line off c saw cur He Hok Hcur).
  Qed.
End Tree.

Lemma inv_bst0 top : inv top bst0.
Proof. split; [reflexivity | split; [constructor | apply bnd_0]]. Qed.

Theorem spans_cover_gen clamp top cursor p : prog_ok top p = 0 ->
  exists sp, highlight_gen clamp top cursor p = Some sp
    /\ spec top sp
    /\ Forall (fun x => sstart x < send x) sp.
Proof.
  intros Hok.
  destruct (tree_ok_calls top cursor) as (_ & _ & Hprog & _).
  destruct (run_calls_ok clamp top _ bst0 _ (inv_bst0 top) (Hprog p top 0 0 (emb_refl top) Hok (Nat.le_refl _)))
    as (st & Hr & Hi & Hc).
  unfold highlight_gen. rewrite Hr. exists (b_spans st). split; [reflexivity|]. split.
  - exact (inv_spec top st Hi Hc).
  - destruct Hi as (_ & Hg & _). eapply Forall_impl; [|exact Hg]. intros x Hx. apply Hx.
Qed.

Theorem spans_cover top cursor p : prog_ok top p = 0 ->
  exists sp, highlight top cursor p = Some sp
    /\ spec top sp
    /\ Forall (fun x => sstart x < send x) sp.
Proof. apply spans_cover_gen. Qed.

Theorem builder_no_panic top cursor p : prog_ok top p = 0 -> highlight top cursor p <> None.
Proof. intros H. destruct (spans_cover top cursor p H) as (sp & -> & _). discriminate. Qed.

Theorem builder_cover clamp top cs : wf_calls top 0 cs -> end_cur 0 cs = blen top ->
  exists st, run_calls_gen clamp top bst0 cs = Some st /\ spec top (b_spans st).
Proof.
  intros Hw He. destruct (run_calls_ok clamp top cs bst0 _ (inv_bst0 top) (conj Hw He)) as (st & Hr & Hi & Hc).
  exists st. split; [exact Hr | exact (inv_spec top st Hi Hc)].
Qed.

Theorem builder_clamped_cover top cs k s e :
  calls_aligned top (cs ++ [Append k s e]) = true -> blen top <= e ->
  exists st, run_calls_gen true top bst0 (cs ++ [Append k s e]) = Some st /\ spec top (b_spans st).
Proof.
  intros Ha He.
  destruct (run_calls_clamped_ok top _ bst0 (inv_bst0 top) (Nat.le_0_l _) Ha) as (st & Hr & Hi & _ & Hfin).
  exists st. split; [exact Hr|]. apply inv_spec; [exact Hi|].
  apply Hfin, Exists_app. right. left. exact He.
Qed.

Lemma prog_calls_last cursor line off p :
  exists cs k s, prog_calls cursor line off p = cs ++ [Append k s (off + blen line)].
Proof.
  destruct p as [|ts]; cbn [prog_calls].
  - exists [], KDefault, off. reflexivity.
  - eexists _, KDefault, _. reflexivity.
Qed.

Theorem spans_cover_clamped top cursor p :
  calls_aligned top (prog_calls cursor top 0 p) = true ->
  exists sp, highlight_gen true top cursor p = Some sp /\ spec top sp.
Proof.
  intros Ha. destruct (prog_calls_last cursor top 0 p) as (cs & k & s & E).
  unfold highlight_gen. rewrite E in *.
  destruct (builder_clamped_cover top cs k s _ Ha (Nat.le_refl _)) as (st & -> & Hs).
  exists (b_spans st). split; [reflexivity | exact Hs].
Qed.

(** for the tree found in /repo when the translator reports the clamped form *)
Theorem spans_cover_repo_clamped : gen.C19Variant.clamp_spans = true -> forall top cursor p,
  calls_aligned top (prog_calls cursor top 0 p) = true ->
  exists sp, highlight top cursor p = Some sp /\ spec top sp.
Proof. intros E top cursor p. unfold highlight. rewrite E. apply spans_cover_clamped. Qed.
