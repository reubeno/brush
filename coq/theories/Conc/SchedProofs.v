(** C11 — the steps of Conc/Sched.v in relational form ([shape]) and the base invariant [Inv] that
    every schedule keeps: the spawn loop and the waiter against the stages' states, and an end of a
    pipe open iff the stage holding it has not ended. FIFO integrity is its pipe clause. *)
From BV Require Import Base.Prelude Conc.Pipe Conc.Sched.

Lemma upd_length {X} (l : list X) : forall i x, length (upd i x l) = length l.
Proof. induction l as [|y l IH]; intros [|i] x; cbn; auto. Qed.

Lemma nth_error_upd {X} (l : list X) : forall i j x,
  nth_error (upd i x l) j =
  if (i =? j)%nat then match nth_error l j with Some _ => Some x | None => None end
  else nth_error l j.
Proof.
  induction l as [|y l IH]; intros [|i] [|j] x; cbn; try reflexivity.
  - destruct (i =? j)%nat; reflexivity.
  - apply IH.
Qed.

Lemma nth_error_upd_neq {X} (l : list X) i j x :
  i <> j -> nth_error (upd i x l) j = nth_error l j.
Proof. intros H. rewrite nth_error_upd. apply Nat.eqb_neq in H. rewrite H. reflexivity. Qed.

Lemma upd_pointwise {X} (Q : nat -> X -> Prop) (l : list X) i y :
  Q i y -> (forall k z, k <> i -> nth_error l k = Some z -> Q k z) ->
  forall k z, nth_error (upd i y l) k = Some z -> Q k z.
Proof.
  intros Hy Hf k z H. rewrite nth_error_upd in H. destruct (Nat.eqb_spec i k) as [<-|Hne].
  - destruct (nth_error l i); inversion H; subst. exact Hy.
  - apply Hf; [congruence|exact H].
Qed.

(** the form in which [exit_stage] closes pipe ends *)
Lemma nth_error_upd_with {X} (f : X -> X) (l : list X) i k :
  nth_error (match nth_error l i with Some p => upd i (f p) l | None => l end) k =
  if (i =? k)%nat then option_map f (nth_error l k) else nth_error l k.
Proof.
  destruct (nth_error l i) as [p|] eqn:E; [rewrite nth_error_upd|];
    (destruct (Nat.eqb_spec i k) as [<-|]; [rewrite E|]; reflexivity).
Qed.

Lemma map_upd_same {X Y} {f : X -> Y} {l : list X} : forall {i x y},
  nth_error l i = Some y -> f x = f y -> map f (upd i x l) = map f l.
Proof.
  induction l as [|z l IH]; intros [|i] x y H E; cbn in *; try discriminate.
  - inversion H; subst. rewrite E. reflexivity.
  - f_equal. eapply IH; eauto.
Qed.

Lemma nth_error_Some_lt {X} {l : list X} {i x} : nth_error l i = Some x -> (i < length l)%nat.
Proof. intros H. apply nth_error_Some. congruence. Qed.

Lemma nth_error_same_length {X Y} (l : list X) (l' : list Y) i x :
  length l = length l' -> nth_error l i = Some x -> exists y, nth_error l' i = Some y.
Proof.
  intros E H. destruct (nth_error l' i) as [y|] eqn:H'; [eauto|].
  apply nth_error_None in H'. pose proof (nth_error_Some_lt H). lia.
Qed.

Lemma nth_error_repeat_inv {X} (x : X) n j : nth_error (repeat x n) j = if (j <? n)%nat then Some x else None.
Proof. revert j; induction n as [|n IH]; intros [|j]; cbn; try reflexivity. apply IH. Qed.

(** the weight of an element depends on how many follow it (Deadlock.v's measure is two of these) *)
Fixpoint wsum {X} (f : X -> nat -> nat) (l : list X) : nat :=
  match l with [] => 0%nat | x :: r => (f x (length r) + wsum f r)%nat end.

Section Proofs.
Variable A : Type.
Variable C : nat.

Notation state := (state A).
Notation stage := (stage A).
Notation next := (next C).

(** what a read of [got] does to the reading stage *)
Definition read_rel (sg : stage) (got : list A) (d : nat) (t : option nat) (pend : list A) : Prop :=
  ((0 < sdrop sg)%nat /\ (length got <= sdrop sg)%nat /\ d = (sdrop sg - length got)%nat /\ t = stake sg /\ pend = [])
  \/
  (sdrop sg = 0%nat /\ d = 0%nat /\
   t = match stake sg with Some t0 => Some (t0 - length got)%nat | None => None end /\
   pend = (if semit sg then got else []) /\ (forall t0, stake sg = Some t0 -> (length got <= t0)%nat)).

(** why a stage ends: normally (nothing pending; no input at all, request used up, or end of
    input), or by EPIPE on a pipe without reader *)
Definition exit_rel (s : state) (i : nat) (sg : stage) (c : nat) : Prop :=
  (c = 0%nat /\ spend sg = [] /\
   (i = 0%nat \/ (sdrop sg = 0%nat /\ stake sg = Some 0%nat) \/
    exists j p, i = S j /\ nth_error (pipes s) j = Some p /\ buf p = [] /\ wr p = 0%nat))
  \/
  (c = EPIPE_STATUS /\ spend sg <> [] /\ exists p, nth_error (pipes s) i = Some p /\ rd p = 0%nat).

(** what [exit_stage] puts in place of [sg] *)
Definition stop (sg : stage) (c : nat) : stage :=
  mkStage (skind sg) (Done c) (sdrop sg) (stake sg) (semit sg) [].

(** where the output [w] of stage [i] lands *)
Inductive lands (s : state) (i : nat) (w : list A) : list (pipe A) -> list A -> Prop :=
| l_out : S i = length (stages s) -> lands s i w (pipes s) (out s ++ w)
| l_pipe p : nth_error (pipes s) i = Some p -> (length (buf p) + length w <= C)%nat ->
    lands s i w (upd i (push p w) (pipes s)) (out s).

Inductive move (s : state) (i : nat) (sg : stage) : stage -> list (pipe A) -> list A -> Prop :=
| m_emit m ps o : (1 <= m)%nat -> (m <= length (spend sg))%nat -> lands s i (firstn m (spend sg)) ps o ->
    move s i sg (set_io sg (sdrop sg) (stake sg) (skipn m (spend sg))) ps o
| m_read j p got b d t pend : i = S j -> spend sg = [] -> nth_error (pipes s) j = Some p ->
    buf p = got ++ b -> got <> [] -> read_rel sg got d t pend ->
    move s i sg (set_io sg d t pend) (upd j (pop p got b) (pipes s)) (out s)
| m_exit c : exit_rel s i sg c -> move s i sg (stop sg c) (pipes (exit_stage s i sg c)) (out s).

(** what [next] can do, with the results of [pread]/[pwrite] already taken apart ([next_shape]);
    the invariants here and in Kahn.v, Deadlock.v are proved over this *)
Inductive shape (s : state) : state -> Prop :=
| sh_spawn sg :
    inline_busy s = false -> nth_error (stages s) (pc s) = Some sg ->
    shape s (mkState (upd (pc s) (set_st sg Running) (stages s)) (pipes s) (out s)
                     (S (pc s)) (wt s) (sts s))
| sh_wait sg c :
    pc s = length (stages s) -> inline_busy s = false ->
    nth_error (stages s) (wt s) = Some sg -> sst sg = Done c ->
    shape s (mkState (stages s) (pipes s) (out s) (pc s) (S (wt s)) (sts s ++ [c]))
| sh_stage i sg sg' ps o :
    nth_error (stages s) i = Some sg -> sst sg = Running -> move s i sg sg' ps o ->
    shape s (put_stage s i sg' ps o).

(** the form in which [next_shape] collects the cases *)
Definition moves (s : state) (i : nat) (sg : stage) (s' : state) : Prop :=
  exists sg' ps o, s' = put_stage s i sg' ps o /\ move s i sg sg' ps o.

Lemma exit_moves s i sg c : exit_rel s i sg c -> moves s i sg (exit_stage s i sg c).
Proof. intros H. exists (stop sg c), (pipes (exit_stage s i sg c)), (out s). split; [reflexivity|apply m_exit; exact H]. Qed.

(** [req], [read_half], [write_half] restate the body of [stage_step] piece by piece
    ([stage_step_eq]). [req]: what a reading stage asks for; [None] — everything *)
Definition req (sg : stage) : option nat :=
  if (0 <? sdrop sg)%nat then Some (sdrop sg) else stake sg.

Definition read_half (s : state) (i q : nat) (sg : stage) : option state :=
  match i with
  | O => Some (exit_stage s i sg 0%nat)
  | S j =>
      match nth_error (pipes s) j with
      | Some p =>
          match pread q p with
          | ROk p' got =>
              let sg' := if (0 <? sdrop sg)%nat
                         then set_io sg (sdrop sg - length got)%nat (stake sg) []
                         else set_io sg 0%nat
                                (match stake sg with Some t => Some (t - length got)%nat
                                                | None => None end)
                                (if semit sg then got else []) in
              Some (put_stage s i sg' (upd j p' (pipes s)) (out s))
          | REof => Some (exit_stage s i sg 0%nat)
          | RBlock => None
          end
      | None => None
      end
  end.

Definition write_half (s : state) (i k : nat) (sg : stage) : option state :=
  if (S i =? length (stages s))%nat then
    let m := Nat.min k (length (spend sg)) in
    Some (put_stage s i (set_io sg (sdrop sg) (stake sg) (skipn m (spend sg)))
                    (pipes s) (out s ++ firstn m (spend sg)))
  else
    match nth_error (pipes s) i with
    | Some p =>
        match pwrite C k p (spend sg) with
        | WOk p' rest => Some (put_stage s i (set_io sg (sdrop sg) (stake sg) rest)
                                         (upd i p' (pipes s)) (out s))
        | WEpipe => Some (exit_stage s i sg EPIPE_STATUS)
        | WBlock => None
        end
    | None => None
    end.

Lemma stage_step_eq s i k sg :
  stage_step C s i k sg =
  match spend sg with
  | [] => match req sg with
          | Some O => Some (exit_stage s i sg 0%nat)
          | Some lim => read_half s i (Nat.min k lim) sg
          | None => read_half s i k sg
          end
  | _ :: _ => write_half s i k sg
  end.
Proof.
  unfold stage_step, read_half, write_half, req. destruct (spend sg); [|reflexivity].
  destruct (if (0 <? sdrop sg)%nat then Some (sdrop sg) else stake sg) as [[|lim]|]; reflexivity.
Qed.

Lemma read_moves s i sg q s' :
  spend sg = [] -> (forall lim, req sg = Some lim -> (q <= lim)%nat) ->
  read_half s i q sg = Some s' -> moves s i sg s'.
Proof.
  unfold read_half, req. intros Hp Hq. destruct i as [|j].
  - intros H; inversion H. apply exit_moves. left. auto.
  - destruct (nth_error (pipes s) j) as [p|] eqn:Hpj; [|discriminate].
    destruct (pread q p) as [p' got| |] eqn:Hr; [| |discriminate].
    + apply pread_ROk in Hr. destruct Hr as [b [Hb [Hne [Hle ->]]]]. cbv zeta.
      destruct (0 <? sdrop sg)%nat eqn:Hd; intros H; inversion H; eexists _, _, _; (split; [reflexivity|]);
        eapply m_read; eauto.
      * apply Nat.ltb_lt in Hd. specialize (Hq _ eq_refl). left. repeat split; auto; lia.
      * apply Nat.ltb_ge in Hd. right. repeat split; auto; try lia.
        intros t0 Ht0. specialize (Hq t0 Ht0). lia.
    + apply pread_eof in Hr. intros H; inversion H. apply exit_moves. left. split; [reflexivity|].
      split; [exact Hp|]. right. right. exists j, p. tauto.
Qed.

Lemma write_moves s i k sg s' : k <> 0%nat -> spend sg <> [] -> write_half s i k sg = Some s' -> moves s i sg s'.
Proof.
  unfold write_half. intros Hk Hp.
  assert (Hl1 : (1 <= length (spend sg))%nat) by (destruct (spend sg); [contradiction|cbn; lia]).
  destruct (S i =? length (stages s))%nat eqn:Hl.
  - apply Nat.eqb_eq in Hl. intros H; inversion H. eexists _, _, _. split; [reflexivity|].
    apply m_emit; [lia|lia|apply l_out; exact Hl].
  - destruct (nth_error (pipes s) i) as [p|] eqn:Hpi; [|discriminate].
    destruct (pwrite C k p (spend sg)) as [p' rest| |] eqn:Hw; [| |discriminate].
    + apply pwrite_WOk in Hw. destruct Hw as [m [Hm1 [_ [Hm2 [Hm3 [-> ->]]]]]].
      intros H; inversion H. eexists _, _, _. split; [reflexivity|].
      apply m_emit; [exact Hm1|exact Hm2|]. apply l_pipe; [exact Hpi|]. rewrite firstn_length. lia.
    + apply pwrite_epipe_iff in Hw. intros H; inversion H. apply exit_moves. right. eauto.
Qed.

Lemma next_shape s l s' : next s l = Some s' -> shape s s'.
Proof.
  destruct l as [|i k|]; cbn [Sched.next].
  - destruct (inline_busy s) eqn:Hb; [discriminate|].
    destruct (nth_error (stages s) (pc s)) as [sg|] eqn:Hn; [|discriminate].
    intros H; inversion H; subst. apply sh_spawn; assumption.
  - destruct (k =? 0)%nat eqn:Hk; [discriminate|]. apply Nat.eqb_neq in Hk.
    destruct (nth_error (stages s) i) as [sg|] eqn:Hn; [|discriminate].
    destruct (sst sg) eqn:Hst; try discriminate.
    intros H. enough (Hm : moves s i sg s').
    { destruct Hm as [sg' [ps [o [-> Hm]]]]. apply sh_stage with sg; assumption. }
    revert H. rewrite stage_step_eq. destruct (spend sg) as [|a pend] eqn:Hp.
    + destruct (req sg) as [[|lim]|] eqn:Hreq.
      * intros H; inversion H. apply exit_moves. left. split; [reflexivity|]. split; [exact Hp|]. right. left.
        unfold req in Hreq. destruct (0 <? sdrop sg)%nat eqn:Hd; [apply Nat.ltb_lt in Hd; inversion Hreq; lia|].
        apply Nat.ltb_ge in Hd. split; [lia|exact Hreq].
      * apply read_moves; [exact Hp|]. rewrite Hreq. intros lim' E. inversion E. lia.
      * apply read_moves; [exact Hp|]. rewrite Hreq. discriminate.
    + apply write_moves; [exact Hk|]. rewrite Hp. discriminate.
  - destruct ((pc s =? length (stages s))%nat && negb (inline_busy s)) eqn:Hc; [|discriminate].
    apply andb_true_iff in Hc. destruct Hc as [Hpc Hb]. apply Nat.eqb_eq in Hpc.
    apply negb_true_iff in Hb.
    destruct (nth_error (stages s) (wt s)) as [sg|] eqn:Hn; [|discriminate].
    destruct (sst sg) eqn:Hst; try discriminate.
    intros H; inversion H; subst. eapply sh_wait; eauto.
Qed.

(** a running stage cannot step: output pending for a full pipe that has a reader, or input wanted
    from an empty pipe that has a writer. (A missing pipe blocks too; [Inv] rules that out.) *)
Definition blocked (s : state) (i : nat) (sg : stage) : Prop :=
  match spend sg with
  | [] => req sg <> Some 0%nat /\
          exists j, i = S j /\ match nth_error (pipes s) j with
                               | Some p => buf p = [] /\ wr p <> 0%nat
                               | None => True
                               end
  | _ :: _ => S i <> length (stages s) /\
              match nth_error (pipes s) i with
              | Some p => rd p <> 0%nat /\ (C <= length (buf p))%nat
              | None => True
              end
  end.

Lemma stage_blocked s i k sg : k <> 0%nat -> (stage_step C s i k sg = None <-> blocked s i sg).
Proof.
  (* each half returns [None] only where [pread]/[pwrite] blocks, which does not depend on the quantum *)
  intros Hk. rewrite stage_step_eq. unfold blocked. destruct (spend sg) as [|a pend] eqn:Hp.
  - assert (R : forall q, q <> 0%nat ->
              (read_half s i q sg = None <->
               exists j, i = S j /\ match nth_error (pipes s) j with
                                    | Some p => buf p = [] /\ wr p <> 0%nat | None => True end)).
    { intros q Hq. unfold read_half. destruct i as [|j]; [split; [discriminate|intros [j [H _]]; discriminate]|].
      transitivity (match nth_error (pipes s) j with
                    | Some p => buf p = [] /\ wr p <> 0%nat | None => True end).
      - destruct (nth_error (pipes s) j) as [p|]; [|tauto]. rewrite <- (pread_block_iff A q p Hq).
        destruct (pread q p); split; congruence.
      - split; [eauto|]. intros [j' [E H]]. inversion E. exact H. }
    destruct (req sg) as [[|lim]|].
    + split; [discriminate|intros [H _]; exfalso; exact (H eq_refl)].
    + rewrite (R (Nat.min k (S lim))) by lia. split; [split; [discriminate|assumption]|tauto].
    + rewrite (R k) by exact Hk. split; [split; [discriminate|assumption]|tauto].
  - unfold write_half. rewrite Hp.
    destruct (Nat.eqb_spec (S i) (length (stages s))) as [E|E]; [split; [discriminate|tauto]|].
    destruct (nth_error (pipes s) i) as [p|]; [|tauto].
    rewrite <- (pwrite_block_iff A C k p (a :: pend) Hk) by discriminate.
    destruct (pwrite C k p (a :: pend)).
    + split; [discriminate|intros [_ H]; discriminate].
    + split; [discriminate|intros [_ H]; discriminate].
    + split; [intros _; split; [exact E|reflexivity]|reflexivity].
Qed.

Lemma move_stage {s i sg sg' ps o} : move s i sg sg' ps o ->
  skind sg' = skind sg /\ semit sg' = semit sg /\ (sst sg' = sst sg \/ exists c, sg' = stop sg c).
Proof. destruct 1; cbn; eauto. Qed.

Lemma inline_busy_true (s : state) : inline_busy s = true <->
  exists i sg, nth_error (stages s) i = Some sg /\ skind sg = Inline /\ sst sg = Running.
Proof.
  unfold inline_busy. rewrite existsb_exists.
  assert (E : forall sg : stage, is_inline sg && is_running sg = true <-> skind sg = Inline /\ sst sg = Running).
  { intros sg. unfold is_inline, is_running. destruct (skind sg), (sst sg); cbn; split; intros H;
      try discriminate; try tauto; destruct H; discriminate. }
  split.
  - intros [sg [Hin H]]. apply In_nth_error in Hin. destruct Hin as [i Hi]. exists i, sg. split; [exact Hi|apply E; exact H].
  - intros [i [sg [Hi H]]]. exists sg. split; [eapply nth_error_In; eauto|apply E; exact H].
Qed.

Lemma exit_pipes_nth (s : state) i sg c k :
  nth_error (pipes (exit_stage s i sg c)) k =
  option_map (fun p => if (i =? k)%nat then close_w p else if (i =? S k)%nat then close_r p else p)
             (nth_error (pipes s) k).
Proof.
  unfold exit_stage. cbn [pipes]. rewrite (nth_error_upd_with (@close_w A)).
  destruct i as [|j]; [|rewrite (nth_error_upd_with (@close_r A))];
    destruct (nth_error (pipes s) k); cbn [option_map];
    repeat match goal with |- context [(?a =? ?b)%nat] => destruct (Nat.eqb_spec a b) end;
    try reflexivity; lia.
Qed.

Lemma exit_pipes_length (s : state) i sg c : length (pipes (exit_stage s i sg c)) = length (pipes s).
Proof.
  assert (L : forall (f : pipe A -> pipe A) l n,
            length (match nth_error l n with Some p => upd n (f p) l | None => l end) = length l).
  { intros f l n. destruct (nth_error l n); [apply upd_length|reflexivity]. }
  unfold exit_stage. cbn [pipes]. rewrite L. destruct i; [reflexivity|apply L].
Qed.

Definition done_at (s : state) (i : nat) : bool :=
  match nth_error (stages s) i with Some sg => is_done sg | None => false end.

(** stage [i] against the spawn loop at [pc] and the waiter at [wt]; second clause: the loop is
    inside a running inline stage *)
Definition stage_ctl (pc wt i : nat) (sg : stage) : Prop :=
  (sst sg = NotStarted <-> (pc <= i)%nat) /\
  (skind sg = Inline -> sst sg = Running -> S i = pc) /\
  ((i < wt)%nat -> exists c, sst sg = Done c).

(** an end of a pipe is open iff the stage holding it has not ended *)
Definition pipe_inv (dn : nat -> bool) (j : nat) (p : pipe A) : Prop :=
  pipe_ok C p /\ wr p = (if dn j then 0 else 1)%nat /\ rd p = (if dn (S j) then 0 else 1)%nat.

Record Inv (s : state) : Prop := {
  inv_len : length (pipes s) = pred (length (stages s));
  inv_pc : (pc s <= length (stages s))%nat;
  inv_wt : (wt s <= length (stages s))%nat;
  inv_ctl : forall i sg, nth_error (stages s) i = Some sg -> stage_ctl (pc s) (wt s) i sg;
  inv_pipes : forall j p, nth_error (pipes s) j = Some p -> pipe_inv (done_at s) j p
}.

Lemma inv_started s : Inv s -> forall i sg, nth_error (stages s) i = Some sg ->
  (sst sg = NotStarted <-> (pc s <= i)%nat).
Proof. intros HI i sg H. apply (inv_ctl s HI i sg H). Qed.

Lemma inv_inline s : Inv s -> forall i sg, nth_error (stages s) i = Some sg ->
  skind sg = Inline -> sst sg = Running -> S i = pc s.
Proof. intros HI i sg H. apply (inv_ctl s HI i sg H). Qed.

Lemma inv_waited s : Inv s -> forall i sg, nth_error (stages s) i = Some sg ->
  (i < wt s)%nat -> exists c, sst sg = Done c.
Proof. intros HI i sg H. apply (inv_ctl s HI i sg H). Qed.

Lemma inv_pipe_ok s : Inv s -> forall j p, nth_error (pipes s) j = Some p -> pipe_ok C p.
Proof. intros HI j p H. apply (inv_pipes s HI j p H). Qed.

(** the writer of pipe [j] is stage [j], its reader stage [S j] *)
Lemma inv_wr s : Inv s -> forall j p, nth_error (pipes s) j = Some p ->
  (wr p = 0%nat <-> done_at s j = true).
Proof.
  intros HI j p H. destruct (inv_pipes s HI j p H) as [_ [-> _]].
  destruct (done_at s j); split; try discriminate; reflexivity.
Qed.

Lemma inv_rd s : Inv s -> forall j p, nth_error (pipes s) j = Some p ->
  (rd p = 0%nat <-> done_at s (S j) = true).
Proof.
  intros HI j p H. destruct (inv_pipes s HI j p H) as [_ [_ ->]].
  destruct (done_at s (S j)); split; try discriminate; reflexivity.
Qed.

Lemma init_inv sgs : Inv (init sgs).
Proof.
  constructor; unfold init; cbn [stages pipes pc wt].
  - rewrite repeat_length, map_length. reflexivity.
  - lia.
  - lia.
  - intros i sg H. rewrite nth_error_map in H.
    destruct (nth_error sgs i); [|discriminate]. inversion H; subst. cbn.
    repeat split; try discriminate; lia.
  - intros j p H. rewrite nth_error_repeat_inv in H. destruct (j <? _)%nat; inversion H.
    unfold pipe_inv, done_at. cbn [stages]. rewrite !nth_error_map.
    split; [apply new_pipe_ok|].
    destruct (nth_error sgs j); destruct (nth_error sgs (S j)); cbn; split; reflexivity.
Qed.

Lemma running_not_done (sg : stage) : sst sg = Running -> is_done sg = false.
Proof. unfold is_done. intros ->. reflexivity. Qed.

Lemma done_at_upd (s s' : state) i sg sg' k :
  nth_error (stages s) i = Some sg -> stages s' = upd i sg' (stages s) ->
  done_at s' k = if (i =? k)%nat then is_done sg' else done_at s k.
Proof.
  intros Hn E. unfold done_at. rewrite E, nth_error_upd.
  destruct (Nat.eqb_spec i k) as [<-|]; [rewrite Hn|]; reflexivity.
Qed.

Lemma done_at_upd_same (s s' : state) i sg sg' k :
  nth_error (stages s) i = Some sg -> stages s' = upd i sg' (stages s) ->
  is_done sg' = is_done sg -> done_at s' k = done_at s k.
Proof.
  intros Hn E Hd. rewrite (done_at_upd s s' i sg sg' k Hn E).
  destruct (Nat.eqb_spec i k) as [<-|]; [|reflexivity]. unfold done_at. rewrite Hn. exact Hd.
Qed.

Lemma pipe_inv_ext dn dn' j p : (forall k, dn' k = dn k) -> pipe_inv dn j p -> pipe_inv dn' j p.
Proof. intros E H. unfold pipe_inv. rewrite !E. exact H. Qed.

Lemma move_pipes s i sg sg' ps o :
  (forall j p, nth_error (pipes s) j = Some p -> pipe_inv (done_at s) j p) ->
  nth_error (stages s) i = Some sg -> sst sg = Running -> move s i sg sg' ps o ->
  length ps = length (pipes s) /\
  forall j p, nth_error ps j = Some p -> pipe_inv (done_at (put_stage s i sg' ps o)) j p.
Proof.
  (* a write or a read leaves [done_at] alone; an exit closes the ends the stage held and makes
     exactly that stage ended *)
  intros Hpi Hn Hr Hm.
  assert (Hsame : forall d t pend ps0 o0 k,
            done_at (put_stage s i (set_io sg d t pend) ps0 o0) k = done_at s k).
  { intros. apply (done_at_upd_same s _ i sg (set_io sg d t pend)); [exact Hn|reflexivity|reflexivity]. }
  destruct Hm as [m ps o Hm1 Hm2 Hl | j p got b d t pend -> Hsp Hp Hb Hne Hrel | c Hex].
  - destruct Hl as [Hl | p Hp Hroom].
    + split; [reflexivity|]. intros j p H. apply (pipe_inv_ext (done_at s)); [apply Hsame|apply Hpi; exact H].
    + split; [apply upd_length|]. intros j q H. apply (pipe_inv_ext (done_at s)); [apply Hsame|].
      revert j q H. apply upd_pointwise; [|intros k z _; apply Hpi].
      destruct (Hpi i p Hp) as [Hok HH]. split; [apply push_ok; assumption|exact HH].
  - split; [apply upd_length|]. intros j0 q H. apply (pipe_inv_ext (done_at s)); [apply Hsame|].
    revert j0 q H. apply upd_pointwise; [|intros k z _; apply Hpi].
    destruct (Hpi j p Hp) as [Hok HH]. split; [apply (pop_ok A C p got b Hok Hb)|exact HH].
  - split; [apply exit_pipes_length|]. intros k pk H. rewrite exit_pipes_nth in H.
    destruct (nth_error (pipes s) k) as [p0|] eqn:Hk; inversion H.
    destruct (Hpi k p0 Hk) as [Hok [Hw Hrd]].
    assert (Hnd : done_at s i = false) by (unfold done_at, is_done; rewrite Hn, Hr; reflexivity).
    assert (Hda : forall k0, done_at (put_stage s i (stop sg c) (pipes (exit_stage s i sg c)) (out s)) k0 =
                             if (i =? k0)%nat then true else done_at s k0).
    { intros k0. apply (done_at_upd s _ i sg (stop sg c) k0 Hn). reflexivity. }
    unfold pipe_inv. rewrite !Hda.
    destruct (Nat.eqb_spec i k) as [<-|Hne].
    + replace (i =? S i)%nat with false by (symmetry; apply Nat.eqb_neq; lia).
      split; [apply close_w_ok; exact Hok|]. cbn [close_w wr rd]. rewrite Hw, Hnd. auto.
    + destruct (Nat.eqb_spec i (S k)) as [->|Hne2]; [|tauto].
      split; [apply close_r_ok; exact Hok|]. cbn [close_r wr rd]. rewrite Hrd, Hnd. auto.
Qed.

Lemma inv_step s s' : Inv s -> shape s s' -> Inv s'.
Proof.
  intros [Hlen Hpc Hwt Hctl Hpi] Hsh.
  destruct Hsh as [sg Hb Hn | sg c Hpcn Hb Hn Hd | i sg sg' ps o Hn Hr Hm].
  - pose proof (nth_error_Some_lt Hn) as Hlt.
    destruct (Hctl _ _ Hn) as [Hns [_ Hw]].
    assert (Hns' : sst sg = NotStarted) by (apply Hns; lia).
    constructor; cbn [stages pipes pc wt]; rewrite ?upd_length; auto.
    + apply upd_pointwise.
      * repeat split; cbn; try discriminate; try lia.
        intros Hlt'. destruct (Hw Hlt') as [c Hc]. congruence.
      * intros k z Hne Hk. destruct (Hctl _ _ Hk) as [H1 [H2 H3]].
        repeat split; [rewrite H1; lia|rewrite H1; lia| |exact H3].
        (* no other inline stage is running: the loop would be inside it *)
        intros Hin Hrun. exfalso. assert (E : inline_busy s = true) by (apply inline_busy_true; eauto).
        congruence.
    + intros j p H. apply (pipe_inv_ext (done_at s)); [|apply Hpi; exact H].
      intros k. apply (done_at_upd_same s _ (pc s) sg (set_st sg Running)); [exact Hn|reflexivity|].
      unfold is_done. cbn. rewrite Hns'. reflexivity.
  - pose proof (nth_error_Some_lt Hn) as Hlt.
    constructor; cbn [stages pipes pc wt]; auto.
    intros i sg0 H. destruct (Hctl _ _ H) as [H1 [H2 H3]]. split; [exact H1|]. split; [exact H2|].
    intros Hi. destruct (Nat.eq_dec i (wt s)) as [->|Hne]; [|apply H3; lia].
    rewrite Hn in H. inversion H; subst. eauto.
  - destruct (move_stage Hm) as [Hk [_ Hs]].
    destruct (Hctl _ _ Hn) as [H1 [H2 H3]].
    destruct (move_pipes s i sg sg' ps o Hpi Hn Hr Hm) as [Hpl Hpi'].
    constructor; cbn [put_stage stages pipes pc wt]; rewrite ?upd_length; auto.
    + rewrite Hpl. exact Hlen.
    + apply upd_pointwise; [|intros k z _; apply Hctl]. repeat split.
      * intros E. exfalso. destruct Hs as [Hs|[c ->]]; [congruence|discriminate].
      * intros Hle. apply H1 in Hle. congruence.
      * intros Hin _. apply H2; [congruence|exact Hr].
      * intros Hlt. destruct (H3 Hlt) as [c Hc]. congruence.
Qed.

Lemma reach_inv sgs s : reach C (init sgs) s -> Inv s.
Proof.
  induction 1 as [|s l s' _ IH Hn]; [apply init_inv|].
  eapply inv_step; [exact IH|]. eapply next_shape; exact Hn.
Qed.

(** never changes, and with it the number of stages *)
Definition kinds (s : state) : list kind := map (@skind A) (stages s).

Lemma kinds_step s s' : shape s s' -> kinds s' = kinds s.
Proof.
  intros Hsh. unfold kinds.
  destruct Hsh as [sg Hb Hn | | i sg sg' ps o Hn Hr Hm]; cbn [put_stage stages]; [|reflexivity|].
  - apply (map_upd_same Hn). reflexivity.
  - apply (map_upd_same Hn). apply (move_stage Hm).
Qed.

Lemma kinds_reach sgs s : reach C (init sgs) s -> kinds s = map (@skind A) sgs.
Proof.
  induction 1 as [|s l s' _ IH Hn].
  - unfold kinds, init. cbn [stages]. rewrite map_map. reflexivity.
  - rewrite <- IH. apply kinds_step. eapply next_shape; exact Hn.
Qed.

Lemma skind_reach (sgs : list stage) (s : state) : reach C (init sgs) s -> forall i sg0 sg,
  nth_error sgs i = Some sg0 -> nth_error (stages s) i = Some sg -> skind sg = skind sg0.
Proof.
  intros Hr i sg0 sg H0 Hn. pose proof (f_equal (fun l => nth_error l i) (kinds_reach sgs s Hr)) as E.
  unfold kinds in E. cbn beta in E. rewrite !nth_error_map, H0, Hn in E. inversion E. reflexivity.
Qed.

Lemma stages_length_reach (sgs : list stage) (s : state) : reach C (init sgs) s -> length sgs = length (stages s).
Proof.
  intros Hr. pose proof (kinds_reach sgs s Hr) as Hk. unfold kinds in Hk.
  rewrite <- (map_length (@skind A) (stages s)), Hk, map_length. reflexivity.
Qed.

Theorem fifo_integrity sgs s : reach C (init sgs) s ->
  Forall (fun p : pipe A => hw p = hr p ++ buf p /\ (length (buf p) <= C)%nat) (pipes s).
Proof.
  intros Hr. apply reach_inv in Hr. apply Forall_forall. intros p Hin.
  apply In_nth_error in Hin. destruct Hin as [j Hj]. exact (inv_pipe_ok s Hr j p Hj).
Qed.

End Proofs.

Arguments inv_len {A C s}. Arguments inv_pc {A C s}. Arguments inv_wt {A C s}.
Arguments inv_started {A C s} _ {i sg}. Arguments inv_inline {A C s} _ {i sg}.
Arguments inv_waited {A C s} _ {i sg}. Arguments inv_pipe_ok {A C s} _ {j p}.
Arguments inv_wr {A C s} _ {j p}. Arguments inv_rd {A C s} _ {j p}.
Arguments running_not_done {A sg}. Arguments move_stage {A C s i sg sg' ps o}.
