(** C17 — job numbers and the current / previous marks after every history of table operations
    (one induction, [run_ops_inv], carries the three theorems), and the waiter of [wait_all] against
    task completions arriving in any order ([WInv]). *)
From BV Require Import Base.Prelude Conc.Jobs.

Definition ids (m : mgr) : list nat := map jid m.

Lemma ids_length m m' : ids m = ids m' -> length m = length m'.
Proof. intros H. apply (f_equal (@length nat)) in H. unfold ids in H. rewrite !map_length in H. exact H. Qed.

Lemma nth_error_same_ids m m' i j : ids m = ids m' -> nth_error m i = Some j -> exists j', nth_error m' i = Some j'.
Proof.
  intros E H. apply ids_length in E. destruct (nth_error m' i) as [j'|] eqn:H'; [eauto|].
  apply nth_error_None in H'. assert (i < length m)%nat by (apply nth_error_Some; congruence). lia.
Qed.

(** brush before 649020c: add, add, task 1 finishes, poll, add => two live jobs numbered 2 *)
Theorem ids_distinct_refuted :
  exists ops, let m := table (run_ops false world0 ops) in
    ~ NoDup (ids m) /\ Forall (fun j => jst j = JRunning /\ jtasks j <> []) m.
Proof.
  exists [OAdd; OAdd; OFin 1%nat; OPoll; OAdd]. vm_compute. split.
  - intros H. inversion H as [|x l Hn _]; subst. apply Hn. left. reflexivity.
  - repeat constructor; discriminate.
Qed.

Fixpoint increasing (l : list nat) : Prop :=
  match l with [] => True | x :: r => Forall (fun y => (x < y)%nat) r /\ increasing r end.

Lemma increasing_NoDup l : increasing l -> NoDup l.
Proof.
  induction l as [|x r IH]; intros H; [constructor|]. destruct H as [Hf Hi].
  constructor; [|apply IH; exact Hi].
  intros Hin. rewrite Forall_forall in Hf. specialize (Hf x Hin). lia.
Qed.

Lemma increasing_app_last l x : increasing l -> Forall (fun y => (y < x)%nat) l -> increasing (l ++ [x]).
Proof.
  induction l as [|a r IH]; intros Hi Hf; cbn; [split; [constructor|exact I]|].
  destruct Hi as [Ha Hr]. inversion Hf as [|? ? Hax Hrx]; subst. split.
  - apply Forall_app. split; [exact Ha|]. constructor; [exact Hax|constructor].
  - apply IH; assumption.
Qed.

Lemma ids_demote_first m : ids (demote_first m) = ids m.
Proof.
  induction m as [|j r IH]; [reflexivity|]. cbn. destruct (is_cur j); cbn; [reflexivity|].
  f_equal. exact IH.
Qed.

Lemma ids_clear_prev m : ids (clear_prev m) = ids m.
Proof.
  unfold ids, clear_prev. rewrite map_map. apply map_ext. intros j. destruct (is_prev j); reflexivity.
Qed.

Lemma max_id_ge m : Forall (fun y => (y < S (max_id m))%nat) (ids m).
Proof.
  induction m as [|j r IH]; [constructor|].
  unfold ids, max_id in *. cbn [map fold_right]. constructor.
  - lia.
  - eapply Forall_impl; [|exact IH]. cbn beta. intros a Ha. lia.
Qed.

Lemma poll_done_id fin j : jid (fst (poll_done fin j)) = jid j.
Proof. unfold poll_done. destruct (drop_finished fin (jtasks j)); reflexivity. Qed.

Lemma poll_ids_incl fin m x : In x (ids (fst (poll fin m))) -> In x (ids m).
Proof.
  induction m as [|j r IH]; cbn; [auto|].
  pose proof (poll_done_id fin j) as Hid.
  destruct (poll_done fin j) as [j' d]. destruct (poll fin r) as [m' res]. cbn [fst] in *.
  destruct d; [cbn; auto|]. destruct (jst j'); cbn; [|auto].
  intros [H|H]; [left; congruence|auto].
Qed.

Lemma poll_increasing fin m : increasing (ids m) -> increasing (ids (fst (poll fin m))).
Proof.
  induction m as [|j r IH]; cbn; [auto|]. intros [Hf Hi].
  pose proof (poll_ids_incl fin r) as Hincl. pose proof (poll_done_id fin j) as Hid.
  destruct (poll_done fin j) as [j' d]. destruct (poll fin r) as [m' res]. cbn [fst] in *.
  destruct d; [cbn; auto|]. destruct (jst j'); cbn; [|auto]. split; [|auto].
  apply Forall_forall. intros y Hy. rewrite Hid. rewrite Forall_forall in Hf. apply Hf, Hincl, Hy.
Qed.

Lemma ids_wait_first id m : ids (fst (wait_first id m)) = ids m.
Proof.
  induction m as [|j r IH]; [reflexivity|]. cbn. destruct (jid j =? id)%nat; [reflexivity|].
  destruct (wait_first id r) as [r' ts]. cbn in *. f_equal. exact IH.
Qed.

Lemma sweep_all_done m : Forall (fun j => jtasks j = []) m -> sweep m = ([], m).
Proof.
  unfold sweep. induction 1 as [|j r Hj _ IH]; [reflexivity|]. injection IH as IH1 IH2.
  cbn [filter]. replace (no_tasks j) with true by (unfold no_tasks; rewrite Hj; reflexivity).
  cbn [negb]. rewrite IH1, IH2. reflexivity.
Qed.

(** the functional summary of [wait_all] that the correspondence runs *)
Lemma wait_all_done_spec m : wait_all_done m = ([], map (fun j => mkJob (jid j) [] (jann j) JDone) m).
Proof.
  apply sweep_all_done. apply Forall_forall. intros j Hin. apply in_map_iff in Hin.
  destruct Hin as [j0 [<- _]]. reflexivity.
Qed.

Lemma run_ops_inv (P : mgr -> Prop) (fixed : bool) :
  (forall m ts, P m -> P ((if fixed then add_fixed else add_as_current) m ts)) ->
  (forall fin m, P m -> P (fst (poll fin m))) ->
  (forall id m, P m -> P (fst (wait_first id m))) ->
  P [] -> forall ops, P (table (run_ops fixed world0 ops)).
Proof.
  intros Hadd Hpoll Hwait Hnil ops.
  enough (H : forall w, P (table w) -> P (table (run_ops fixed w ops))) by (apply H; exact Hnil).
  induction ops as [|o r IH]; intros w Hw; [exact Hw|]. cbn [run_ops]. apply IH.
  destruct o; cbn [op_step].
  - apply Hadd. exact Hw.
  - exact Hw.
  - specialize (Hpoll (fun t => memb t (finished w)) _ Hw).
    destruct (poll (fun t => memb t (finished w)) (table w)). exact Hpoll.
  - rewrite wait_all_done_spec. exact Hnil.
  - specialize (Hwait id _ Hw). destruct (wait_first id (table w)). exact Hwait.
Qed.

(** repaired assignment: whatever the history, live jobs carry distinct numbers *)
Theorem ids_distinct_fixed : forall ops, NoDup (ids (table (run_ops true world0 ops))).
Proof.
  intros ops. apply increasing_NoDup. apply (run_ops_inv (fun m => increasing (ids m)) true).
  - intros m ts Hm. unfold add_fixed, ids. rewrite map_app. fold (ids (demote_first (clear_prev m))).
    rewrite ids_demote_first, ids_clear_prev. apply increasing_app_last; [exact Hm|apply max_id_ge].
  - intros fin m. apply poll_increasing.
  - intros id m Hm. rewrite ids_wait_first. exact Hm.
  - exact I.
Qed.

Lemma firstn_seq' : forall n k a, firstn k (seq a n) = seq a (Nat.min k n).
Proof.
  induction n as [|n IH]; intros [|k] a; cbn; try reflexivity. f_equal. apply IH.
Qed.

(** brush before 649020c: numbers stay distinct as long as jobs only leave from the end of the table *)
Definition canonical (m : mgr) : Prop := ids m = seq 1 (length m).

Theorem ids_distinct_if_suffix_removal :
  canonical [] /\
  (forall m ts, canonical m -> canonical (add_as_current m ts)) /\
  (forall m k, canonical m -> canonical (firstn k m)) /\
  (forall m, canonical m -> NoDup (ids m)).
Proof.
  unfold canonical. repeat split.
  - intros m ts H. unfold add_as_current, ids. rewrite map_app. fold (ids (demote_first m)).
    rewrite ids_demote_first, H, app_length. cbn [map jid length].
    rewrite Nat.add_1_r, seq_S, (ids_length _ _ (ids_demote_first m)). reflexivity.
  - intros m k H. unfold ids in *. rewrite <- firstn_map, H, firstn_length.
    rewrite firstn_seq'. reflexivity.
  - intros m H. rewrite H. apply seq_NoDup.
Qed.

Definition count (f : job -> bool) (m : mgr) : nat := length (filter f m).

Lemma count_demote_cur m : (count is_cur m <= 1 -> count is_cur (demote_first m) = 0)%nat.
Proof.
  unfold count. induction m as [|j r IH]; [reflexivity|]. cbn. destruct (is_cur j) eqn:Hc.
  - intros H. cbn [length] in H.
    replace (filter is_cur (set_ann j APrev :: r)) with (filter is_cur r) by reflexivity. lia.
  - cbn. rewrite Hc. exact IH.
Qed.

Lemma count_demote_prev m : (count is_prev (demote_first m) <= S (count is_prev m))%nat.
Proof.
  unfold count. induction m as [|j r IH]; [cbn; lia|]. cbn. destruct (is_cur j) eqn:Hc.
  - replace (filter is_prev (set_ann j APrev :: r)) with (set_ann j APrev :: filter is_prev r) by reflexivity.
    cbn [length]. destruct (is_prev j); cbn [length]; lia.
  - cbn. destruct (is_prev j); cbn [length]; lia.
Qed.

Lemma count_clear_prev m : count is_prev (clear_prev m) = 0%nat /\
                           count is_cur (clear_prev m) = count is_cur m.
Proof.
  unfold count, clear_prev. induction m as [|j r [IH1 IH2]]; [split; reflexivity|]. cbn.
  destruct (is_prev j) eqn:Hp.
  - assert (Hc : is_cur j = false) by (unfold is_prev in Hp; unfold is_cur; destruct (jann j); try discriminate; reflexivity).
    rewrite Hc.
    replace (is_prev (set_ann j ANone)) with false by reflexivity.
    replace (is_cur (set_ann j ANone)) with false by reflexivity. split; assumption.
  - rewrite Hp. split; [exact IH1|]. destruct (is_cur j); cbn [length]; lia.
Qed.

Lemma count_app f m1 m2 : count f (m1 ++ m2) = (count f m1 + count f m2)%nat.
Proof. unfold count. rewrite filter_app, app_length. reflexivity. Qed.

Lemma poll_done_ann fin j : jann (fst (poll_done fin j)) = jann j.
Proof. unfold poll_done. destruct (drop_finished fin (jtasks j)); reflexivity. Qed.

Lemma count_poll (f : job -> bool) fin m :
  (forall j j', jann j' = jann j -> f j' = f j) ->
  (count f (fst (poll fin m)) <= count f m)%nat.
Proof.
  intros Hf. unfold count. induction m as [|j r IH]; cbn; [lia|].
  pose proof (poll_done_ann fin j) as Ha.
  destruct (poll_done fin j) as [j' d]. destruct (poll fin r) as [m' res]. cbn [fst] in *.
  rewrite <- (Hf j j' Ha).
  destruct d; [destruct (f j'); cbn; lia|].
  destruct (jst j'); cbn; destruct (f j'); cbn; lia.
Qed.

Lemma count_wait_first (f : job -> bool) id m :
  (forall j j', jann j' = jann j -> f j' = f j) ->
  count f (fst (wait_first id m)) = count f m.
Proof.
  intros Hf. unfold count. induction m as [|j r IH]; [reflexivity|]. cbn.
  destruct (jid j =? id)%nat.
  - cbn. rewrite (Hf j (mkJob (jid j) [] (jann j) JDone) eq_refl). destruct (f j); reflexivity.
  - destruct (wait_first id r) as [r' ts]. cbn in *. destruct (f j); cbn [length]; rewrite IH; reflexivity.
Qed.

Lemma is_cur_ann j j' : jann j' = jann j -> is_cur j' = is_cur j.
Proof. unfold is_cur. intros ->. reflexivity. Qed.
Lemma is_prev_ann j j' : jann j' = jann j -> is_prev j' = is_prev j.
Proof. unfold is_prev. intros ->. reflexivity. Qed.

(** at most one job is marked current — the code before the repairs and after, every history *)
Theorem current_unique : forall fixed ops, (count is_cur (table (run_ops fixed world0 ops)) <= 1)%nat.
Proof.
  intros fixed. apply (run_ops_inv (fun m => (count is_cur m <= 1)%nat) fixed).
  - intros m ts Hm. destruct fixed.
    + unfold add_fixed. rewrite count_app. destruct (count_clear_prev m) as [_ Hc].
      rewrite count_demote_cur by lia. cbn. lia.
    + unfold add_as_current. rewrite count_app, count_demote_cur by exact Hm. cbn. lia.
  - intros fin m Hm. pose proof (count_poll is_cur fin m is_cur_ann). lia.
  - intros id m Hm. rewrite (count_wait_first is_cur id m is_cur_ann). exact Hm.
  - cbn. lia.
Qed.

(** brush before 01e8198: three launches leave two jobs marked previous *)
Theorem previous_unique_refuted :
  exists ops, (count is_prev (table (run_ops false world0 ops)) = 2)%nat.
Proof. exists [OAdd; OAdd; OAdd]. reflexivity. Qed.

Theorem previous_unique_fixed : forall ops, (count is_prev (table (run_ops true world0 ops)) <= 1)%nat.
Proof.
  apply (run_ops_inv (fun m => (count is_prev m <= 1)%nat) true).
  - intros m ts Hm. unfold add_fixed. rewrite count_app. destruct (count_clear_prev m) as [Hp _].
    pose proof (count_demote_prev (clear_prev m)). cbn. lia.
  - intros fin m Hm. pose proof (count_poll is_prev fin m is_prev_ann). lia.
  - intros id m Hm. rewrite (count_wait_first is_prev id m is_prev_ann). exact Hm.
  - cbn. lia.
Qed.

Lemma upd_job_length i f m : length (upd_job i f m) = length m.
Proof. revert i; induction m as [|j r IH]; intros [|i]; cbn; auto. Qed.

Lemma nth_error_upd_job m : forall i f k,
  nth_error (upd_job i f m) k =
  if (i =? k)%nat then option_map f (nth_error m k) else nth_error m k.
Proof.
  induction m as [|j r IH]; intros [|i] f [|k]; cbn; try reflexivity.
  - destruct (i =? k)%nat; reflexivity.
  - apply IH.
Qed.

Lemma ids_upd_job i f m : (forall j, jid (f j) = jid j) -> ids (upd_job i f m) = ids m.
Proof.
  intros Hf. revert i; induction m as [|j r IH]; intros [|i]; cbn; try reflexivity.
  - rewrite Hf. reflexivity.
  - f_equal. apply IH.
Qed.

(** job [i] of the table [wait_all] started with, as the waiter at [idx] has left it: tasks popped
    from its back have finished; before the waiter nothing is left *)
Definition job_ok (fin : list nat) (idx i : nat) (j0 j : job) : Prop :=
  exists popped, jtasks j0 = jtasks j ++ popped /\ (forall t, In t popped -> In t fin) /\
                 ((i < idx)%nat -> jtasks j = [] /\ jst j = JDone).

Record WInv (m : mgr) (w : wst) : Prop := {
  wi_ids : ids (wm w) = ids m;
  wi_jobs : forall i j0 j, nth_error m i = Some j0 -> nth_error (wm w) i = Some j ->
      job_ok (wfin w) (widx w) i j0 j
}.

Lemma memb_In t l : memb t l = true -> In t l.
Proof.
  unfold memb. intros H. apply existsb_exists in H. destruct H as [x [Hin Hx]].
  apply Nat.eqb_eq in Hx. subst. exact Hin.
Qed.

Lemma winv_at m w f idx' j0c jc :
  WInv m w -> nth_error m (widx w) = Some j0c -> nth_error (wm w) (widx w) = Some jc ->
  (forall j, jid (f j) = jid j) -> (idx' <= S (widx w))%nat ->
  job_ok (wfin w) idx' (widx w) j0c (f jc) ->
  WInv m (mkW (upd_job (widx w) f (wm w)) idx' (wfin w)).
Proof.
  intros [Hids Hj] H0c Hc Hf Hi Hok.
  constructor; cbn [wm widx wfin].
  - rewrite ids_upd_job; [exact Hids|exact Hf].
  - intros i j0 j H0 H1. rewrite nth_error_upd_job in H1. destruct (Nat.eqb_spec (widx w) i) as [<-|Hne].
    + rewrite Hc in H1. inversion H1; subst j. rewrite H0c in H0. inversion H0; subst j0. exact Hok.
    + destruct (Hj i j0 j H0 H1) as [pp [Q1 [Q2 Q3]]].
      exists pp. split; [exact Q1|]. split; [exact Q2|]. intros Hlt'. apply Q3. lia.
Qed.

Lemma winv_step m w e w' : WInv m w -> wev_step w e = Some w' -> WInv m w'.
Proof.
  intros HI He. destruct e as [t|]; cbn in He.
  - destruct HI as [Hids Hj]. inversion He; subst w'; clear He. constructor; cbn [wm widx wfin]; auto.
    intros i j0 j H0 H1. destruct (Hj i j0 j H0 H1) as [pp [P1 [P2 P3]]].
    exists pp. split; [exact P1|]. split; [|exact P3]. intros t0 Ht. right. auto.
  - unfold wait_step in He.
    destruct (nth_error (wm w) (widx w)) as [jc|] eqn:Hc; [|discriminate].
    destruct (nth_error_same_ids _ m _ _ (wi_ids m w HI) Hc) as [j0c H0c].
    destruct (wi_jobs m w HI _ _ _ H0c Hc) as [popped [P1 [P2 _]]].
    destruct (rev (jtasks jc)) as [|t rest] eqn:Hrev.
    + (* the job has no task left: mark Done, move on *)
      assert (Hnil : jtasks jc = []) by (rewrite <- (rev_involutive (jtasks jc)), Hrev; reflexivity).
      inversion He; subst w'; clear He. apply (winv_at m w _ _ j0c jc HI H0c Hc); [reflexivity|lia|].
      rewrite Hnil in P1. exists popped. split; [exact P1|]. split; [exact P2|].
      intros _; split; reflexivity.
    + destruct (memb t (wfin w)) eqn:Hm; [|discriminate].
      inversion He; subst w'; clear He. apply memb_In in Hm.
      assert (Hts : jtasks jc = rev rest ++ [t]) by (rewrite <- (rev_involutive (jtasks jc)), Hrev; reflexivity).
      apply (winv_at m w _ _ j0c jc HI H0c Hc); [reflexivity|lia|].
      exists (t :: popped). cbn [jtasks]. split; [rewrite P1, Hts, <- app_assoc; reflexivity|].
      split; [intros t0 [<-|Ht]; [exact Hm|apply P2; exact Ht]|]. intros; lia.
Qed.

Lemma winv_init m fin0 : WInv m (mkW m 0 fin0).
Proof.
  constructor; cbn; [reflexivity|].
  intros i j0 j H0 H1. rewrite H0 in H1. inversion H1; subst. exists []. rewrite app_nil_r.
  split; [reflexivity|]. split; [intros ? []|]. intros; lia.
Qed.

Lemma winv_run m : forall es w w', WInv m w -> wrun w es = Some w' -> WInv m w'.
Proof.
  induction es as [|e r IH]; intros w w' HI H; cbn in H.
  - inversion H; subst. exact HI.
  - destruct (wev_step w e) as [w1|] eqn:E; [|discriminate].
    eapply IH; [|exact H]. eapply winv_step; eauto.
Qed.

(** however task completions and the waiter's steps interleave, when wait_all
    returns every task of every job that was in the table has finished; it returns exactly the
    jobs of the table — same numbers, same order, hence none twice and none lost —, each
    without tasks and marked Done; and the table is left empty. *)
Theorem wait_all_post : forall m fin0 es w m' ret,
  wrun (mkW m 0 fin0) es = Some w -> wait_returned w = Some (m', ret) ->
  (forall j t, In j m -> In t (jtasks j) -> In t (wfin w)) /\
  ids ret = ids m /\ m' = [] /\
  Forall (fun j => jtasks j = [] /\ jst j = JDone) ret.
Proof.
  intros m fin0 es w m' ret Hrun Hret.
  pose proof (winv_run m es _ _ (winv_init m fin0) Hrun) as [Hids Hj].
  unfold wait_returned in Hret. destruct (widx w =? length (wm w))%nat eqn:He; [|discriminate].
  apply Nat.eqb_eq in He. pose proof (ids_length _ _ Hids) as Hlen.
  assert (Hall : forall j, In j (wm w) -> jtasks j = [] /\ jst j = JDone).
  { intros j Hin. apply In_nth_error in Hin. destruct Hin as [i Hi].
    assert (Hlt : (i < length (wm w))%nat) by (apply nth_error_Some; congruence).
    destruct (nth_error_same_ids _ m _ _ Hids Hi) as [j0 H0].
    destruct (Hj i j0 j H0 Hi) as [pp [_ [_ A]]]. apply A. lia. }
  rewrite sweep_all_done in Hret by (apply Forall_forall; intros j Hin; apply (Hall j Hin)).
  inversion Hret; subst m' ret; clear Hret. repeat split.
  - intros j0 t Hin Ht. apply In_nth_error in Hin. destruct Hin as [i Hi].
    assert (Hlt : (i < length m)%nat) by (apply nth_error_Some; congruence).
    destruct (nth_error_same_ids _ (wm w) _ _ (eq_sym Hids) Hi) as [j H1].
    destruct (Hj i j0 j Hi H1) as [pp [P1 [P2 A]]]. destruct A as [Hnil _]; [lia|].
    apply P2. rewrite P1, Hnil in Ht. exact Ht.
  - exact Hids.
  - apply Forall_forall. exact Hall.
Qed.

Theorem wait_blocks_on_unfinished : forall w j t rest,
  nth_error (wm w) (widx w) = Some j -> rev (jtasks j) = t :: rest -> memb t (wfin w) = false ->
  wait_step w = None.
Proof. intros w j t rest Hn Hr Hm. unfold wait_step. rewrite Hn, Hr, Hm. reflexivity. Qed.

(** non-vacuity: two jobs, tasks finishing in the opposite order, the waiter gets through *)
Example wait_all_example :
  let m := add_as_current (add_as_current [] [1%nat]) [2%nat] in
  exists w, wrun (mkW m 0 []) [EFin 2; EFin 1; EStep; EStep; EStep; EStep]%nat = Some w /\
            wait_returned w = Some ([], map (fun j => mkJob (jid j) [] (jann j) JDone) m).
Proof. cbv zeta. eexists. split; vm_compute; reflexivity. Qed.
