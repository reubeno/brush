(** C11 — a kernel pipe as a bounded FIFO with counted ends.
    [buf] is what is in flight, [wr]/[rd] count the open write/read ends, [hw]/[hr] are ghost
    histories (everything ever written / read) used only to state integrity.
    The capacity [C] is a parameter of the operations; nothing is assumed about it here. *)
From BV Require Import Base.Prelude.

Section Pipe.
Variable A : Type.

Record pipe := mkPipe { buf : list A; wr : nat; rd : nat; hw : list A; hr : list A }.

Definition new_pipe : pipe := mkPipe [] 1 1 [] [].

Definition space (C : nat) (p : pipe) : nat := (C - length (buf p))%nat.

(** write(2) of [d] where the scheduler lets at most [k] units through in this step:
    no reader left -> EPIPE (never blocks); no room -> the writer blocks; otherwise a
    non-empty prefix goes in (partial writes are allowed: all splittings are schedules). *)
Inductive wres := WOk (p : pipe) (rest : list A) | WEpipe | WBlock.

Definition pwrite (C k : nat) (p : pipe) (d : list A) : wres :=
  if (rd p =? 0)%nat then WEpipe else
  let m := Nat.min k (Nat.min (space C p) (length d)) in
  if (m =? 0)%nat then WBlock
  else WOk (mkPipe (buf p ++ firstn m d) (wr p) (rd p) (hw p ++ firstn m d) (hr p)) (skipn m d).

(** read(2) of at most [k] units: data if any; else EOF when no writer is left; else block. *)
Inductive rres := ROk (p : pipe) (got : list A) | REof | RBlock.

Definition pread (k : nat) (p : pipe) : rres :=
  match buf p with
  | [] => if (wr p =? 0)%nat then REof else RBlock
  | _ => let m := Nat.min k (length (buf p)) in
         if (m =? 0)%nat then RBlock
         else ROk (mkPipe (skipn m (buf p)) (wr p) (rd p) (hw p) (hr p ++ firstn m (buf p)))
                  (firstn m (buf p))
  end.

Definition close_w (p : pipe) : pipe := mkPipe (buf p) (pred (wr p)) (rd p) (hw p) (hr p).
Definition close_r (p : pipe) : pipe := mkPipe (buf p) (wr p) (pred (rd p)) (hw p) (hr p).

(** Integrity: what was read, followed by what is in flight, is exactly what was written
    (so reads are a prefix of writes, in order, each unit once), and the buffer is bounded. *)
Definition pipe_ok (C : nat) (p : pipe) : Prop :=
  hw p = hr p ++ buf p /\ (length (buf p) <= C)%nat.

Lemma new_pipe_ok C : pipe_ok C new_pipe.
Proof. split; cbn; [reflexivity | lia]. Qed.

(** the pipe after [w] has gone in / after [got] has come out leaving [b] *)
Definition push (p : pipe) (w : list A) : pipe := mkPipe (buf p ++ w) (wr p) (rd p) (hw p ++ w) (hr p).
Definition pop (p : pipe) (got b : list A) : pipe := mkPipe b (wr p) (rd p) (hw p) (hr p ++ got).

Lemma pwrite_WOk C k p d p' rest : pwrite C k p d = WOk p' rest ->
  exists m, (1 <= m)%nat /\ (m <= k)%nat /\ (m <= length d)%nat /\ (length (buf p) + m <= C)%nat /\
            rest = skipn m d /\ p' = push p (firstn m d).
Proof.
  unfold pwrite. destruct (rd p =? 0)%nat; [discriminate|].
  set (m := Nat.min k (Nat.min (space C p) (length d))).
  destruct (m =? 0)%nat eqn:Hm; [discriminate|]. apply Nat.eqb_neq in Hm.
  intros H; inversion H. exists m. unfold space in m. repeat split; lia.
Qed.

Lemma pread_ROk k p p' got : pread k p = ROk p' got ->
  exists b, buf p = got ++ b /\ got <> [] /\ (length got <= k)%nat /\ p' = pop p got b.
Proof.
  unfold pread. destruct (buf p) as [|a b0] eqn:Hb; [destruct (wr p =? 0)%nat; discriminate|].
  set (m := Nat.min k (length (a :: b0))).
  destruct (m =? 0)%nat eqn:Hm; [discriminate|]. apply Nat.eqb_neq in Hm.
  intros H; inversion H. exists (skipn m (a :: b0)). repeat split.
  - symmetry. apply firstn_skipn.
  - destruct m; [contradiction|discriminate].
  - rewrite firstn_length. lia.
Qed.

Lemma push_ok C p w : pipe_ok C p -> (length (buf p) + length w <= C)%nat -> pipe_ok C (push p w).
Proof.
  intros [Hh _] Hl. split; cbn [push buf hw hr].
  - rewrite Hh, app_assoc. reflexivity.
  - rewrite app_length. exact Hl.
Qed.

Lemma pop_ok C p got b : pipe_ok C p -> buf p = got ++ b -> pipe_ok C (pop p got b).
Proof.
  intros [Hh Hl] Hb. rewrite Hb in Hh, Hl. split; cbn [pop buf hw hr].
  - rewrite Hh, app_assoc. reflexivity.
  - rewrite app_length in Hl. lia.
Qed.

Lemma close_w_ok C p : pipe_ok C p -> pipe_ok C (close_w p).
Proof. intros H; exact H. Qed.
Lemma close_r_ok C p : pipe_ok C p -> pipe_ok C (close_r p).
Proof. intros H; exact H. Qed.

Lemma pwrite_epipe_iff C k p d : pwrite C k p d = WEpipe <-> rd p = 0%nat.
Proof.
  unfold pwrite. destruct (Nat.eqb_spec (rd p) 0) as [E|E]; [tauto|].
  destruct (Nat.min k (Nat.min (space C p) (length d)) =? 0)%nat; split; [discriminate|contradiction|discriminate|contradiction].
Qed.

(** when a write or a read blocks does not depend on the quantum *)
Lemma pwrite_block_iff C k p d : k <> 0%nat -> d <> [] ->
  (pwrite C k p d = WBlock <-> rd p <> 0%nat /\ (C <= length (buf p))%nat).
Proof.
  intros Hk Hd. unfold pwrite, space. destruct d as [|a d]; [contradiction|]. cbn [length].
  destruct (Nat.eqb_spec (rd p) 0) as [E|E]; [split; [discriminate|tauto]|].
  destruct (Nat.eqb_spec (Nat.min k (Nat.min (C - length (buf p)) (S (length d)))) 0) as [E2|E2].
  - split; [intros _; split; [exact E|lia]|reflexivity].
  - split; [discriminate|intros [_ H]; exfalso; lia].
Qed.

Lemma pread_block_iff k p : k <> 0%nat -> (pread k p = RBlock <-> buf p = [] /\ wr p <> 0%nat).
Proof.
  intros Hk. unfold pread. destruct (buf p) as [|a b].
  - destruct (Nat.eqb_spec (wr p) 0); split; try discriminate; tauto.
  - destruct (Nat.eqb_spec (Nat.min k (length (a :: b))) 0) as [E|E]; [cbn [length] in E; lia|].
    split; [discriminate|intros [H _]; discriminate].
Qed.

Lemma pread_eof k p : pread k p = REof -> buf p = [] /\ wr p = 0%nat.
Proof.
  unfold pread. destruct (buf p) as [|a b].
  - destruct (wr p =? 0)%nat eqn:Hw; [|discriminate]. apply Nat.eqb_eq in Hw. auto.
  - destruct (Nat.min k (length (a :: b)) =? 0)%nat; discriminate.
Qed.

End Pipe.

Arguments mkPipe {A}. Arguments buf {A}. Arguments wr {A}. Arguments rd {A}.
Arguments hw {A}. Arguments hr {A}. Arguments new_pipe {A}. Arguments space {A}.
Arguments pwrite {A}. Arguments pread {A}. Arguments close_w {A}. Arguments close_r {A}.
Arguments pipe_ok {A}. Arguments push {A}. Arguments pop {A}. Arguments WOk {A}. Arguments WEpipe {A}. Arguments WBlock {A}.
Arguments ROk {A}. Arguments REof {A}. Arguments RBlock {A}.
