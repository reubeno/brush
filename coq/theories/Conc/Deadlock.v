(** C11 — liveness of the pipeline algorithm: once every stage is started something can always
    move; a measure that drops at every step; EPIPE instead of blocking after an early exit; and
    the refutation for an inline stage in the middle (brush before 6cea0bb). *)
From BV Require Import Base.Prelude Conc.Pipe Conc.Sched Conc.SchedProofs.

Lemma wsum_upd {X} (f : X -> nat -> nat) (l : list X) : forall i r x y,
  nth_error l i = Some x -> (i + S r = length l)%nat ->
  (wsum f (upd i y l) + f x r = wsum f l + f y r)%nat.
Proof.
  induction l as [|z l IH]; intros [|i] r x y H Hr; cbn in *; try discriminate.
  - inversion H; subst. replace r with (length l) by lia. lia.
  - specialize (IH i r x y H). rewrite upd_length. lia.
Qed.

Lemma wsum_upd_same {X} (f : X -> nat -> nat) (l : list X) i x y :
  nth_error l i = Some x -> (forall r, f y r = f x r) -> wsum f (upd i y l) = wsum f l.
Proof.
  intros H E. pose proof (nth_error_Some_lt H) as Hlt.
  pose proof (wsum_upd f l i (length l - S i) x y H) as W. rewrite E in W. lia.
Qed.

Section Live.
Variable A : Type.
Variable C : nat.

Notation state := (state A).
Notation stage := (stage A).
Notation next := (next C).
Notation Inv := (Inv A C).

(** the two ways of [blocked], with the pipe that [Inv] supplies *)
Definition wblocked (s : state) (i : nat) : Prop :=
  exists sg p, nth_error (stages s) i = Some sg /\ spend sg <> [] /\
               nth_error (pipes s) i = Some p /\ (C <= length (buf p))%nat /\ rd p <> 0%nat.
Definition rblocked (s : state) (i : nat) : Prop :=
  exists sg j p, i = S j /\ nth_error (stages s) i = Some sg /\ spend sg = [] /\
                 nth_error (pipes s) j = Some p /\ buf p = [] /\ wr p <> 0%nat.

Lemma pipe_exists (s : state) j : Inv s -> (S j < length (stages s))%nat ->
  exists p, nth_error (pipes s) j = Some p.
Proof.
  intros HI Hlt. destruct (nth_error (pipes s) j) as [p|] eqn:E; [eauto|].
  apply nth_error_None in E. rewrite (inv_len HI) in E. lia.
Qed.

Lemma step_or_blocked s i sg : Inv s -> nth_error (stages s) i = Some sg -> sst sg = Running ->
  (exists s', next s (LStage i 1) = Some s') \/ wblocked s i \/ rblocked s i.
Proof.
  intros HI Hn Hr.
  pose proof (nth_error_Some_lt Hn) as Hlt.
  cbn [Sched.next Nat.eqb]. rewrite Hn, Hr.
  destruct (stage_step C s i 1 sg) as [s'|] eqn:E; [left; eauto|right].
  apply stage_blocked in E; [|discriminate]. unfold blocked in E. destruct (spend sg) as [|a pend] eqn:Hp.
  - right. destruct E as [_ [j [-> Hb]]]. destruct (pipe_exists s j HI Hlt) as [p Hpj]. rewrite Hpj in Hb.
    exists sg, j, p. tauto.
  - left. destruct E as [Hl Hb]. destruct (pipe_exists s i HI) as [p Hpi]; [lia|]. rewrite Hpi in Hb.
    exists sg, p. rewrite Hp. repeat split; try tauto. discriminate.
Qed.

Lemma running_of (s : state) i : Inv s -> (i < pc s)%nat -> done_at A s i = false ->
  exists sg, nth_error (stages s) i = Some sg /\ sst sg = Running.
Proof.
  intros HI Hlt Hd. pose proof (inv_pc HI) as Hpc.
  destruct (nth_error (stages s) i) as [sg|] eqn:Hn.
  - exists sg. split; [reflexivity|]. unfold done_at in Hd. rewrite Hn in Hd.
    destruct (sst sg) eqn:Hst; [|reflexivity|unfold is_done in Hd; rewrite Hst in Hd; discriminate].
    apply (inv_started HI Hn) in Hst. lia.
  - apply nth_error_None in Hn. lia.
Qed.

(** A full pipe is then not empty, so two neighbours are not both blocked on the same pipe. *)
Section Capacity.
Hypothesis HC : (1 <= C)%nat.

(** blocked on a full pipe: the reader is runnable or blocked further right *)
Lemma chain_right s : Inv s -> pc s = length (stages s) ->
  forall d i sg, (i + d = length (stages s) - 1)%nat -> nth_error (stages s) i = Some sg ->
    sst sg = Running -> ~ rblocked s i -> exists i' s', next s (LStage i' 1) = Some s'.
Proof.
  intros HI Hpc. induction d as [|d IH]; intros i sg Hd Hn Hr Hnr.
  all: destruct (step_or_blocked s i sg HI Hn Hr) as [[s' H]|[Hw|Hb]]; [eauto| |contradiction].
  all: destruct Hw as [sg' [p [Hn' [Hsp [Hpi [Hfull Hrd]]]]]].
  all: pose proof (nth_error_Some_lt Hpi) as Hil.
  all: rewrite (inv_len HI) in Hil.
  - (* the last stage has no pipe to be blocked on *) lia.
  - rewrite (inv_rd HI Hpi) in Hrd. apply not_true_is_false in Hrd.
    destruct (running_of s (S i) HI) as [sg2 [Hn2 Hr2]]; [lia|exact Hrd|].
    apply (IH (S i) sg2); [lia|exact Hn2|exact Hr2|].
    (* the reader is not waiting for input: the pipe is full *)
    intros [sg3 [j [p3 [Hj [_ [_ [Hp3 [Hb3 _]]]]]]]]. inversion Hj; subst j.
    rewrite Hpi in Hp3. inversion Hp3; subst p3. rewrite Hb3 in Hfull. cbn in Hfull. lia.
Qed.

(** blocked on an empty pipe: look left *)
Lemma chain_left s : Inv s ->
  forall i sg, (i < pc s)%nat -> nth_error (stages s) i = Some sg -> sst sg = Running -> ~ wblocked s i ->
    exists i' s', next s (LStage i' 1) = Some s'.
Proof.
  intros HI. induction i as [|i IH]; intros sg Hipc Hn Hr Hnw.
  all: destruct (step_or_blocked s _ sg HI Hn Hr) as [[s' H]|[Hw|Hb]]; [eauto|contradiction|].
  all: destruct Hb as [sg' [j [p [Hj [Hn' [Hsp [Hpj [Hemp Hwr]]]]]]]].
  - (* the first stage reads from no pipe *) discriminate.
  - inversion Hj; subst j.
    pose proof (nth_error_Some_lt Hn) as Hlt.
    rewrite (inv_wr HI Hpj) in Hwr. apply not_true_is_false in Hwr.
    destruct (running_of s i HI) as [sg2 [Hn2 Hr2]]; [lia|exact Hwr|].
    apply (IH sg2); [lia|exact Hn2|exact Hr2|].
    (* the writer is not waiting for room: the pipe is empty *)
    intros [sg3 [p3 [_ [_ [Hp3 [Hfull _]]]]]].
    rewrite Hpj in Hp3. inversion Hp3; subst p3. rewrite Hemp in Hfull. cbn in Hfull. lia.
Qed.

Lemma progress_all_started s : Inv s -> pc s = length (stages s) -> ~ final s ->
  exists s', step C s s'.
Proof.
  intros HI Hpcn Hnf. unfold final in Hnf.
  pose proof (inv_pc HI) as Hpc. pose proof (inv_wt HI) as Hwt.
  destruct (existsb (fun sg : stage => is_running sg) (stages s)) eqn:Hrun.
  - apply existsb_exists in Hrun. destruct Hrun as [sg [Hin Hr]].
    apply In_nth_error in Hin. destruct Hin as [i Hn]. unfold is_running in Hr. destruct (sst sg) eqn:Hst; try discriminate.
    pose proof (nth_error_Some_lt Hn) as Hlt.
    assert (Hen : exists i' s', next s (LStage i' 1) = Some s').
    { (* with output pending it can only wait for stages to its right, without for those to its left *)
      destruct (spend sg) as [|a r] eqn:Hsp.
      - apply (chain_left s HI i sg); auto; [lia|]. intros [sg4 [p4 [Hn4 [Hs4 _]]]]. congruence.
      - apply (chain_right s HI Hpcn (length (stages s) - 1 - i) i sg); auto; [lia|].
        intros [sg3 [j [p3 [_ [Hn3 [Hs3 _]]]]]]. congruence. }
    destruct Hen as [i' [s' H]]. exists s', (LStage i' 1). exact H.
  - (* nothing runs: the waiter collects the next status *)
    assert (Hall : forall i sg, nth_error (stages s) i = Some sg -> exists c, sst sg = Done c).
    { intros i sg Hn.
      pose proof (nth_error_Some_lt Hn) as Hlt.
      destruct (sst sg) eqn:Hst; [| |eauto].
      - apply (inv_started HI Hn) in Hst. lia.
      - exfalso. apply not_true_iff_false in Hrun. apply Hrun, existsb_exists.
        exists sg. split; [eapply nth_error_In; exact Hn|]. unfold is_running. rewrite Hst. reflexivity. }
    assert (Hbusy : inline_busy s = false).
    { destruct (inline_busy s) eqn:E; [|reflexivity]. apply inline_busy_true in E.
      destruct E as [i [sg [Hn [_ Hrn]]]]. destruct (Hall i sg Hn) as [c Hc]. congruence. }
    destruct (nth_error (stages s) (wt s)) as [sg|] eqn:Hn.
    + destruct (Hall _ _ Hn) as [c Hc]. eexists. exists LWait. cbn [Sched.next].
      rewrite Hpcn, Nat.eqb_refl, Hbusy, Hn, Hc. cbn. reflexivity.
    + apply nth_error_None in Hn. lia.
Qed.

End Capacity.

(** exactly when brush starts every stage before waiting on any *)
Definition inline_only_last (ks : list kind) : Prop :=
  forall i, nth_error ks i = Some Inline -> S i = length ks.

(** brush now (repaired [execute_in_pipeline] / [execute_via_function]): every kind is [Spawned];
    with lastpipe the last stage alone runs in the parent shell ([Inline]). *)
Definition all_spawned (sgs : list stage) : Prop := Forall (fun sg => skind sg = Spawned) sgs.

Lemma all_spawned_only_last sgs : all_spawned sgs -> inline_only_last (map (@skind A) sgs).
Proof.
  intros Hall i Hi. exfalso. rewrite nth_error_map in Hi.
  destruct (nth_error sgs i) as [sg|] eqn:E; [|discriminate]. cbn in Hi. inversion Hi as [Hk].
  unfold all_spawned in Hall. rewrite Forall_forall in Hall.
  assert (Hs : skind sg = Spawned) by (apply Hall; eapply nth_error_In; eauto). congruence.
Qed.

(** The measure. A unit pending in a stage with [r] stages after it weighs [2r+2]; the pipe behind
    that stage has [r-1] pipes after it, so there the unit weighs [2r+1], and pending in the next
    stage [2r]: every transfer makes the sum smaller. A stage that has not ended adds 1, the
    spawn loop and the waiter add what they have left to do. *)
Definition sweight (sg : stage) (r : nat) : nat :=
  ((if is_done sg then 0 else 1) + (2 * r + 2) * length (spend sg))%nat.
Definition pweight (p : pipe A) (r : nat) : nat := ((2 * r + 3) * length (buf p))%nat.
Definition mu (s : state) : nat :=
  ((length (stages s) - pc s) + (length (stages s) - wt s) +
   wsum sweight (stages s) + wsum pweight (pipes s))%nat.

Lemma wsum_exit_pipes s i sg c :
  wsum pweight (pipes (exit_stage s i sg c)) = wsum pweight (pipes s).
Proof.
  assert (W : forall (g : pipe A -> pipe A) l n, (forall p r, pweight (g p) r = pweight p r) ->
            wsum pweight (match nth_error l n with Some p => upd n (g p) l | None => l end) = wsum pweight l).
  { intros g l n E. destruct (nth_error l n) as [p|] eqn:H; [|reflexivity]. apply (wsum_upd_same pweight l n p); auto. }
  unfold exit_stage. cbn [pipes]. rewrite W by reflexivity. destruct i; [reflexivity|apply W; reflexivity].
Qed.

Lemma sweight_live (sg : stage) r : is_done sg = false ->
  sweight sg r = (1 + (2 * r + 2) * length (spend sg))%nat.
Proof. unfold sweight. intros ->. reflexivity. Qed.

Lemma sweight_stop (sg : stage) c r : sweight (stop A sg c) r = 0%nat.
Proof. unfold sweight. cbn. lia. Qed.

Lemma pweight_push (p : pipe A) w r : pweight (push p w) r = (pweight p r + (2 * r + 3) * length w)%nat.
Proof. unfold pweight. cbn [push buf]. rewrite app_length. lia. Qed.

Lemma pweight_pop (p : pipe A) got b r : buf p = got ++ b ->
  pweight p r = (pweight (pop p got b) r + (2 * r + 3) * length got)%nat.
Proof. unfold pweight. intros ->. cbn [pop buf]. rewrite app_length. lia. Qed.

Lemma read_rel_pend {sg got d t pend} : read_rel A sg got d t pend -> pend = got \/ pend = [].
Proof.
  intros [[_ [_ [_ [_ ->]]]]|[_ [_ [_ [-> _]]]]]; [auto|]. destruct (semit sg); auto.
Qed.

Lemma mu_decreases s s' : Inv s -> shape A C s s' -> (mu s' < mu s)%nat.
Proof.
  intros HI Hsh. pose proof (inv_len HI) as Hlen.
  destruct Hsh as [sg Hb Hn | sg c Hpcn Hb Hn Hd | i sg sg' ps o Hn Hr Hm]; unfold mu.
  - pose proof (nth_error_Some_lt Hn) as Hlt.
    cbn [stages pipes pc wt]. rewrite upd_length.
    assert (Hns : sst sg = NotStarted) by (apply (inv_started HI Hn); lia).
    rewrite (wsum_upd_same sweight (stages s) (pc s) sg); [lia|exact Hn|].
    intros r. unfold sweight, is_done. cbn. rewrite Hns. reflexivity.
  - pose proof (nth_error_Some_lt Hn) as Hlt.
    cbn [stages pipes pc wt]. lia.
  - pose proof (nth_error_Some_lt Hn) as Hi.
    cbn [put_stage stages pipes pc wt]. rewrite upd_length.
    pose proof (running_not_done Hr) as Hnd.
    remember (length (stages s) - S i)%nat as r eqn:Er.
    pose proof (wsum_upd sweight (stages s) i r sg sg' Hn ltac:(lia)) as W.
    rewrite (sweight_live sg r Hnd) in W.
    destruct Hm as [m ps o Hm1 Hm2 Hl | j p got b d t pend -> Hsp Hp Hb Hne Hrel | c Hex].
    + rewrite sweight_live in W by exact Hnd. cbn [set_io spend] in W.
      assert (El : length (spend sg) = (m + length (skipn m (spend sg)))%nat) by (rewrite skipn_length; lia).
      rewrite El in W. destruct Hl as [Hl|p Hp Hroom]; [lia|].
      pose proof (nth_error_Some_lt Hp) as Hil.
      pose proof (wsum_upd pweight (pipes s) i (r - 1) p (push p (firstn m (spend sg))) Hp ltac:(lia)) as V.
      rewrite pweight_push, firstn_length_le in V by exact Hm2.
      destruct r as [|r]; [lia|]. cbn [Nat.sub] in V. rewrite Nat.sub_0_r in V. lia.
    + rewrite sweight_live in W by exact Hnd. cbn [set_io spend] in W. rewrite Hsp in W.
      pose proof (nth_error_Some_lt Hp) as Hil.
      pose proof (wsum_upd pweight (pipes s) j r p (pop p got b) Hp ltac:(lia)) as V.
      rewrite (pweight_pop p got b r Hb) in V.
      assert (Hg : (1 <= length got)%nat) by (destruct got; [contradiction|cbn; lia]).
      destruct (read_rel_pend Hrel) as [-> | ->]; cbn [length] in W; lia.
    + rewrite wsum_exit_pipes. rewrite sweight_stop in W. lia.
Qed.

Theorem terminates sgs s : reach C (init sgs) s ->
  forall ls s', run_labels C s ls = Some s' -> (length ls + mu s' <= mu s)%nat.
Proof.
  intros Hr ls. apply reach_inv in Hr. revert s Hr.
  induction ls as [|l ls IH]; intros s HI s' Hrun; cbn in Hrun.
  - inversion Hrun; subst. cbn. lia.
  - destruct (next s l) as [s1|] eqn:Hn; [|discriminate].
    pose proof (next_shape A C s l s1 Hn) as Hsh.
    pose proof (mu_decreases s s1 HI Hsh) as Hd.
    specialize (IH s1 (inv_step A C s s1 HI Hsh) s' Hrun). cbn [length]. lia.
Qed.

(** once the reader of a pipe is gone, the writer's next write ends the writer with status 141,
    however full or empty the pipe; it cannot block *)
Theorem early_exit_reader sgs s i sg k :
  reach C (init sgs) s -> k <> 0%nat ->
  nth_error (stages s) i = Some sg -> sst sg = Running -> spend sg <> [] ->
  done_at A s (S i) = true ->
  next s (LStage i k) = Some (exit_stage s i sg EPIPE_STATUS).
Proof.
  intros Hr Hk Hn Hst Hsp Hdn. apply reach_inv in Hr.
  assert (Hlt : (S i < length (stages s))%nat).
  { unfold done_at in Hdn. destruct (nth_error (stages s) (S i)) eqn:E; [|discriminate].
    exact (nth_error_Some_lt E). }
  destruct (pipe_exists s i Hr Hlt) as [p Hp].
  pose proof (proj2 (inv_rd Hr Hp) Hdn) as Hrd.
  cbn [Sched.next]. apply Nat.eqb_neq in Hk. rewrite Hk, Hn, Hst. unfold stage_step.
  destruct (spend sg) as [|a pend] eqn:E; [contradiction|].
  replace (S i =? length (stages s))%nat with false by (symmetry; apply Nat.eqb_neq; lia).
  rewrite Hp, (proj2 (pwrite_epipe_iff A C k p _) Hrd). reflexivity.
Qed.

End Live.

(** the algorithm brush had before 6cea0bb can deadlock: three stages, the middle one inline,
    capacity 1, three units — the spawn loop waits for the inline stage, which waits for a
    reader that the loop has not started yet *)
Definition dl_cfg : list (stage nat) :=
  [ mkStage Spawned NotStarted 0 (Some 0%nat) true [0; 1; 2]%nat;
    mkStage Inline NotStarted 0 None true [];
    mkStage Spawned NotStarted 0 None true [] ].
Definition dl_path : list label :=
  [LSpawn; LSpawn; LStage 0 1; LStage 1 1; LStage 1 1; LStage 0 1; LStage 1 1; LStage 0 1; LStage 0 1]%nat.

Lemma run_labels_reach {A} C (s : state A) ls : forall s0 s',
  reach C s0 s -> run_labels C s ls = Some s' -> reach C s0 s'.
Proof.
  revert s. induction ls as [|l ls IH]; intros s s0 s' Hr H; cbn in H.
  - inversion H; subst. exact Hr.
  - destruct (next C s l) as [s1|] eqn:Hn; [|discriminate].
    eapply IH; [|exact H]. eapply reachS; eauto.
Qed.

Theorem inline_stage_deadlock_refuted :
  exists (C : nat) (sgs : list (stage nat)) (s : state nat),
    (1 <= C)%nat /\ (3 <= length (flat_map (@spend nat) sgs))%nat /\
    reach C (init sgs) s /\ ~ final s /\ stuck C s.
Proof.
  exists 1%nat, dl_cfg.
  destruct (run_labels 1 (init dl_cfg) dl_path) as [s|] eqn:Hrun; [|vm_compute in Hrun; discriminate].
  exists s. split; [lia|]. split; [cbn; lia|]. split.
  - eapply run_labels_reach; [apply reach0|exact Hrun].
  - vm_compute in Hrun. inversion Hrun; subst s; clear Hrun. split.
    + unfold final. cbn. lia.
    + intros [|i k|]; [reflexivity| |reflexivity].
      destruct k as [|k]; [reflexivity|].
      destruct i as [|[|[|i]]]; cbn; try reflexivity.
      destruct i; reflexivity.
Qed.

(** the deterministic schedulers of the correspondence entry only follow [next] *)
Lemma first_enabled_next {A} C (s : state A) ls s' :
  first_enabled C s ls = Some s' -> exists l, next C s l = Some s'.
Proof.
  induction ls as [|l ls IH]; cbn; [discriminate|].
  destruct (next C s l) as [s1|] eqn:E; [intros H; inversion H; subst; eauto | exact IH].
Qed.

Lemma run_sched_reach {A} C q down fuel : forall (s s0 : state A) o,
  reach C s0 s -> run_sched C q down fuel s = o ->
  match o with OFinal s' => reach C s0 s' /\ final s' | OStuck s' => reach C s0 s' | OFuel s' => reach C s0 s' end.
Proof.
  induction fuel as [|f IH]; intros s s0 o Hr <-; cbn [run_sched].
  all: destruct (finalb s) eqn:Hf; [split; [exact Hr|apply Nat.eqb_eq; exact Hf]|].
  - exact Hr.
  - destruct (first_enabled C s (prio q down s)) as [s1|] eqn:E; [|exact Hr].
    apply first_enabled_next in E. destruct E as [l Hl].
    apply (IH s1 s0 _ (reachS _ C s0 s l s1 Hr Hl) eq_refl).
Qed.

(** the "stuck" verdict of these schedulers is a genuine deadlock: whether a stage can step does
    not depend on the quantum tried *)
Section StuckSound.
Variable A : Type.
Variable C : nat.

Lemma blocked_any_quantum (s : state A) i q k :
  q <> 0%nat -> next C s (LStage i q) = None -> next C s (LStage i k) = None.
Proof.
  intros Hq. cbn [Sched.next]. destruct (k =? 0)%nat eqn:Hk0; [reflexivity|].
  apply Nat.eqb_neq in Hq. rewrite Hq. apply Nat.eqb_neq in Hq. apply Nat.eqb_neq in Hk0.
  destruct (nth_error (stages s) i) as [sg|]; [|reflexivity].
  destruct (sst sg); try reflexivity. rewrite !stage_blocked by assumption. exact (fun H => H).
Qed.

Lemma first_enabled_none (s : state A) ls :
  first_enabled C s ls = None -> forall l, In l ls -> next C s l = None.
Proof.
  induction ls as [|l0 ls IH]; intros H l Hin; [destruct Hin|]. cbn in H.
  destruct (next C s l0) eqn:E; [discriminate|]. destruct Hin as [<-|Hin]; [exact E|apply IH; assumption].
Qed.

Theorem run_sched_stuck q down fuel : q <> 0%nat -> forall (s s' : state A),
  run_sched C q down fuel s = OStuck s' -> stuck C s'.
Proof.
  intros Hq. induction fuel as [|f IH]; intros s s' H; cbn [run_sched] in H.
  - destruct (finalb s); discriminate.
  - destruct (finalb s); [discriminate|].
    destruct (first_enabled C s (prio q down s)) as [s1|] eqn:E; [eapply IH; eauto|].
    inversion H; subst s'; clear H.
    pose proof (first_enabled_none s _ E) as Hnone.
    intros [|i k|].
    + apply Hnone. left. reflexivity.
    + destruct (Nat.lt_ge_cases i (length (stages s))) as [Hlt|Hge].
      * apply (blocked_any_quantum s i q k Hq). apply Hnone. unfold prio. right. apply in_or_app. left.
        assert (Hin : In (LStage i q) (map (fun i0 => LStage i0 q) (seq 0 (length (stages s))))).
        { apply in_map_iff. exists i. split; [reflexivity|]. apply in_seq. lia. }
        destruct down; [apply in_rev in Hin|]; exact Hin.
      * cbn [Sched.next]. destruct (k =? 0)%nat; [reflexivity|].
        apply nth_error_None in Hge. rewrite Hge. reflexivity.
    + apply Hnone. unfold prio. right. apply in_or_app. right. left. reflexivity.
Qed.
End StuckSound.

(** non-vacuity: `source 5 | cat | head 2` with capacity 2 satisfies the hypothesis of
    [progress_inline_only_last] (Known.v) and completes with the first two units and the
    statuses 0, 141 (EPIPE), 0 under the producer-first scheduler. *)
Definition ex_cfg : list (stage nat) :=
  [ mkStage Spawned NotStarted 0 (Some 0%nat) true [0; 1; 2; 3; 4]%nat;
    mkStage Spawned NotStarted 0 None true [];
    mkStage Inline NotStarted 0 (Some 2%nat) true [] ].

Lemma ex_nonvacuous :
  inline_only_last (map (@skind nat) ex_cfg) /\
  exists s, reach 2 (init ex_cfg) s /\ final s /\ out s = [0; 1]%nat /\ sts s = [0; 141; 0]%nat.
Proof.
  split.
  - intros [|[|[|i]]]; cbn; try discriminate; try reflexivity. destruct i; discriminate.
  - destruct (run_sched 2 3 false 100 (init ex_cfg)) as [s|s|s] eqn:E; vm_compute in E; try discriminate.
    pose proof (run_sched_reach 2 3 false 100 (init ex_cfg) (init ex_cfg) _ (reach0 _ 2 _) E) as [Hr Hf].
    exists s. split; [exact Hr|]. split; [exact Hf|]. inversion E; subst s. split; reflexivity.
Qed.
