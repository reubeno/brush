(** C11 — the class of the known finding, and progress for every pipeline outside it.

    [known_class sgs]: some stage that is not the last one is executed inline and emits more
    than the pipe capacity. How much a stage emits is computed by [counts], the composition of
    the stages' stream functions (the same computation as `flow`/`known_inline` in props/c11.py).
    Outside the class no reachable unfinished state is stuck: an inline stage whose whole output
    fits into its pipe never blocks on writing, and everything to its left is already running. *)
From BV Require Import Base.Prelude Conc.Pipe Conc.Sched Conc.SchedProofs Conc.Kahn Conc.Deadlock.

Section Known.
Variable A : Type.
Variable C : nat.

Notation stage := (stage A).

(** what a stage may still forward when [avail] more input units can arrive *)
Definition pot (sg : stage) (avail : nat) : nat :=
  if semit sg then match stake sg with
                   | Some t => Nat.min t (avail - sdrop sg)
                   | None => (avail - sdrop sg)%nat
                   end
  else 0%nat.

Definition out_count (sg : stage) (inb : nat) : nat := (length (spend sg) + pot sg inb)%nat.

Fixpoint counts (inb : nat) (sgs : list stage) : list nat :=
  match sgs with
  | [] => []
  | sg :: r => let c := out_count sg inb in c :: counts c r
  end.

Definition known_class (sgs : list stage) : bool :=
  let cs := counts 0 sgs in
  existsb (fun i => match nth_error sgs i with
                    | Some sg => is_inline sg && (C <? nth i cs 0)%nat
                    | None => false
                    end) (seq 0 (pred (length sgs))).

(** [counts] is the length of [streams] *)
Lemma out_count_length sg X : out_count sg (length X) = length (prod A sg X).
Proof.
  unfold out_count, pot, prod. rewrite app_length. f_equal.
  destruct (semit sg); [|reflexivity].
  destruct (stake sg); cbn [take_opt]; rewrite ?firstn_length, skipn_length; reflexivity.
Qed.

Lemma counts_streams sgs : forall X, counts (length X) sgs = map (@length A) (streams A X sgs).
Proof.
  induction sgs as [|sg r IH]; intros X; [reflexivity|].
  cbn [counts streams map]. rewrite out_count_length. f_equal. apply IH.
Qed.

Lemma counts_nth_length sgs i : nth i (counts 0 sgs) 0%nat = length (nth i (streams A [] sgs) []).
Proof.
  exact (eq_trans (f_equal (fun l => nth i l 0%nat) (counts_streams sgs []))
                  (map_nth (@length A) (streams A [] sgs) [] i)).
Qed.

Lemma count_le_outside_known sgs i sg0 :
  known_class sgs = false -> nth_error sgs i = Some sg0 -> skind sg0 = Inline ->
  (S i < length sgs)%nat -> (nth i (counts 0 sgs) 0 <= C)%nat.
Proof.
  intros Hk H0 Hin Hlt. apply Nat.ltb_ge.
  destruct (C <? nth i (counts 0 sgs) 0)%nat eqn:E; [|reflexivity].
  rewrite <- Hk. symmetry. apply existsb_exists. exists i. split; [apply in_seq; lia|].
  rewrite H0. unfold is_inline. rewrite Hin. exact E.
Qed.

(** what it has written and still holds is a prefix of its stream, and that fits *)
Lemma inline_not_wblocked sgs s i sg :
  known_class sgs = false -> reach C (init sgs) s ->
  nth_error (stages s) i = Some sg -> skind sg = Inline -> sst sg = Running -> ~ wblocked A C s i.
Proof.
  intros Hk Hr Hn Hkd Hst [sg' [p [Hn' [Hsp [Hp [Hfull _]]]]]].
  rewrite Hn in Hn'. inversion Hn'; subst sg'.
  destruct (reach_facts A C sgs s Hr) as [HI [HK Hlen]].
  assert (Hil : (S i < length sgs)%nat).
  { pose proof (nth_error_Some_lt Hp).
    rewrite (inv_len HI) in H. lia. }
  destruct (nth_error_same_length _ sgs _ _ (eq_sym Hlen) Hn) as [sg0 H0].
  assert (Hk0 : skind sg0 = Inline) by (rewrite <- (skind_reach A C sgs s Hr i sg0 sg H0 Hn); exact Hkd).
  pose proof (count_le_outside_known sgs i sg0 Hk H0 Hk0 Hil) as Hcnt.
  destruct (HK i sg Hn sg0 H0) as [_ Hs]. rewrite Hst in Hs. destruct Hs as [Heq _].
  destruct (produced_prefix A C sgs s HI HK Hlen i sg0 H0) as [rest Hpre].
  rewrite counts_nth_length, Hpre, <- Heq, !app_length in Hcnt.
  unfold emitted in Hcnt. rewrite Hp in Hcnt.
  rewrite (proj1 (inv_pipe_ok HI Hp)), app_length in Hcnt.
  destruct (spend sg); [contradiction|]. cbn [length] in Hcnt. lia.
Qed.

Lemma only_last_outside_known sgs : inline_only_last (map (@skind A) sgs) -> known_class sgs = false.
Proof.
  intros Hk. unfold known_class.
  destruct (existsb _ (seq 0 (pred (length sgs)))) eqn:E; [|reflexivity]. exfalso.
  apply existsb_exists in E. destruct E as [i [Hin H]]. apply in_seq in Hin.
  destruct (nth_error sgs i) as [sg|] eqn:Hn; [|discriminate]. apply andb_true_iff in H. destruct H as [H _].
  assert (Hi : nth_error (map (@skind A) sgs) i = Some Inline).
  { rewrite nth_error_map, Hn. unfold is_inline in H. cbn. destruct (skind sg); [discriminate|reflexivity]. }
  apply Hk in Hi. rewrite map_length in Hi. lia.
Qed.

Section Capacity.
Hypothesis HC : (1 <= C)%nat.

Theorem progress_outside_known sgs s :
  known_class sgs = false -> reach C (init sgs) s -> ~ final s -> exists s', step C s s'.
Proof.
  intros Hk Hr Hnf. pose proof (reach_inv A C sgs s Hr) as HI. pose proof (inv_pc HI) as Hpc.
  destruct (Nat.eq_dec (pc s) (length (stages s))) as [Hpcn|Hpcn];
    [apply (progress_all_started A C HC); assumption|].
  destruct (inline_busy s) eqn:Hbusy.
  - (* the spawn loop is inside an inline stage: that stage can move, or someone to its left can *)
    apply inline_busy_true in Hbusy. destruct Hbusy as [i [sg [Hn [Hkd Hst]]]].
    pose proof (inv_inline HI Hn Hkd Hst) as Hipc.
    destruct (chain_left A C HC s HI i sg) as [i' [s' H]];
      [lia|exact Hn|exact Hst|exact (inline_not_wblocked sgs s i sg Hk Hr Hn Hkd Hst)|].
    exists s', (LStage i' 1). exact H.
  - destruct (nth_error (stages s) (pc s)) as [sg|] eqn:Hn.
    + eexists. exists LSpawn. cbn [Sched.next]. rewrite Hbusy, Hn. reflexivity.
    + apply nth_error_None in Hn. lia.
Qed.

(** with every non-final stage spawned (the last one may run inline), no
    reachable state short of completion is stuck — for every payload and every capacity >= 1 *)
Theorem progress_inline_only_last sgs s :
  inline_only_last (map (@skind A) sgs) -> reach C (init sgs) s -> ~ final s ->
  exists s', step C s s'.
Proof. intros Hk. apply progress_outside_known. apply only_last_outside_known. exact Hk. Qed.

Theorem progress_repaired sgs s :
  all_spawned A sgs -> reach C (init sgs) s -> ~ final s -> exists s', step C s s'.
Proof. intros Hall. apply progress_inline_only_last. apply all_spawned_only_last. exact Hall. Qed.

End Capacity.
End Known.

(** the witness of the refutation is inside the class; the non-vacuity example is outside, and so is a
    pipeline whose inline middle stage emits less than the capacity *)
Lemma known_examples :
  known_class nat 1 dl_cfg = true /\ known_class nat 2 ex_cfg = false /\
  known_class nat 4 [ mkStage Spawned NotStarted 0 (Some 0%nat) true [0;1;2;3;4;5;6;7]%nat;
                      mkStage Inline NotStarted 0 (Some 3%nat) true [];
                      mkStage Spawned NotStarted 0 None true [] ] = false.
Proof. repeat split; reflexivity. Qed.
