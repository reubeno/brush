(** C11 — what the pipeline delivers does not depend on the schedule.

    [prod sg0 K]: what a stage with initial program [sg0] has produced once it has consumed [K];
    [spec_out]: the last of the [streams] composed from these. Safety ([output_prefix]): at every
    moment of every schedule, stdout is a prefix of [spec_out]. Completeness ([output_complete]):
    in every reachable final state it is [spec_out], also when stages were ended early by EPIPE.
    The argument is that of Kahn's process networks: every stage computes a monotone function on
    streams. [KInv] relates each stage to its stream function; [CInv] records why each ended
    stage ended. *)
From BV Require Import Base.Prelude Conc.Pipe Conc.Sched Conc.SchedProofs.

Definition prefix {X} (a b : list X) : Prop := exists c, b = a ++ c.

Lemma prefix_refl {X} (a : list X) : prefix a a.
Proof. exists []. rewrite app_nil_r. reflexivity. Qed.
Lemma prefix_trans {X} (a b c : list X) : prefix a b -> prefix b c -> prefix a c.
Proof. intros [x ->] [y ->]. exists (x ++ y). rewrite app_assoc. reflexivity. Qed.
Lemma prefix_app {X} (a b : list X) : prefix a (a ++ b).
Proof. exists b. reflexivity. Qed.
Lemma prefix_nil {X} (a : list X) : prefix [] a.
Proof. exists a. reflexivity. Qed.

Section Kahn.
Variable A : Type.
Variable C : nat.

Notation state := (state A).
Notation stage := (stage A).
Notation Inv := (Inv A C).

Definition take_opt (t : option nat) (l : list A) : list A :=
  match t with Some n => firstn n l | None => l end.

Definition prod (sg0 : stage) (K : list A) : list A :=
  spend sg0 ++ (if semit sg0 then take_opt (stake sg0) (skipn (sdrop sg0) K) else []).

Fixpoint streams (X : list A) (sgs : list stage) : list (list A) :=
  match sgs with
  | [] => []
  | sg :: r => let Y := prod sg X in Y :: streams Y r
  end.

Definition spec_out (sgs : list stage) : list A := last (streams [] sgs) [].

(** the input stream of stage i *)
Definition xin (sgs : list stage) (i : nat) : list A :=
  match i with O => [] | S j => nth j (streams [] sgs) [] end.

Lemma streams_nth sgs : forall X i sg0, nth_error sgs i = Some sg0 ->
  nth i (streams X sgs) [] = prod sg0 (match i with O => X | S j => nth j (streams X sgs) [] end).
Proof.
  induction sgs as [|x r IH]; intros X [|i] sg0 H; cbn in H; try discriminate.
  - inversion H; subst. reflexivity.
  - cbn [streams nth]. rewrite (IH (prod x X) i sg0 H). destruct i; reflexivity.
Qed.

Lemma streams_length sgs : forall X, length (streams X sgs) = length sgs.
Proof. induction sgs as [|x r IH]; intros X; cbn; auto. Qed.

Lemma prod_mono sg0 K K' : prefix K K' -> prefix (prod sg0 K) (prod sg0 K').
Proof.
  intros [c ->]. unfold prod. destruct (semit sg0); [|apply prefix_refl].
  rewrite skipn_app. set (S0 := skipn (sdrop sg0) K). set (c' := skipn (sdrop sg0 - length K) c).
  destruct (stake sg0) as [t|]; cbn [take_opt].
  - rewrite firstn_app. exists (firstn (t - length S0) c'). rewrite app_assoc. reflexivity.
  - exists c'. rewrite app_assoc. reflexivity.
Qed.

(** from the ghost histories of the pipes; the last stage writes to the pipeline's stdout *)
Definition emitted (s : state) (i : nat) : list A :=
  match nth_error (pipes s) i with Some p => hw p | None => out s end.
Definition consumed (s : state) (i : nat) : list A :=
  match i with
  | O => []
  | S j => match nth_error (pipes s) j with Some p => hr p | None => [] end
  end.

(** the counters of [sg] are those of [sg0] less the input [K] consumed since *)
Definition ctr_ok (sg0 sg : stage) (K : list A) : Prop :=
  sdrop sg = (sdrop sg0 - length K)%nat /\
  stake sg = match stake sg0 with
             | Some t0 => Some (t0 - (length K - sdrop sg0))%nat
             | None => None
             end /\
  (forall t0, stake sg0 = Some t0 -> (length K <= sdrop sg0 + t0)%nat).

(** the request of the stage is used up *)
Definition saturated (sg0 : stage) (K : list A) : Prop :=
  forall K', prefix K K' -> prod sg0 K' = prod sg0 K.

(** a stage started as [sg0] that has consumed [K] and emitted [E] *)
Definition stage_ok (sg0 sg : stage) (E K : list A) : Prop :=
  semit sg = semit sg0 /\
  match sst sg with
  | Done c => prefix E (prod sg0 K) /\ (c = 0%nat -> E = prod sg0 K)
  | _ => E ++ spend sg = prod sg0 K /\ ctr_ok sg0 sg K
  end.

Definition KAt (sgs : list stage) (s : state) (i : nat) (sg : stage) : Prop :=
  forall sg0, nth_error sgs i = Some sg0 -> stage_ok sg0 sg (emitted s i) (consumed s i).
Definition KInv (sgs : list stage) (s : state) : Prop :=
  forall i sg, nth_error (stages s) i = Some sg -> KAt sgs s i sg.

Lemma stage_ok_live {sg0 sg E K} : is_done sg = false ->
  (stage_ok sg0 sg E K <-> semit sg = semit sg0 /\ E ++ spend sg = prod sg0 K /\ ctr_ok sg0 sg K).
Proof. unfold stage_ok, is_done. destruct (sst sg); try discriminate; tauto. Qed.

Lemma prod_nil sg0 : prod sg0 [] = spend sg0.
Proof.
  unfold prod. destruct (semit sg0); [|apply app_nil_r]. rewrite skipn_nil.
  destruct (stake sg0); cbn; [rewrite firstn_nil|]; apply app_nil_r.
Qed.

Lemma init_obs sgs i : emitted (init sgs) i = [] /\ consumed (init sgs) i = [].
Proof.
  unfold emitted, consumed, init. cbn [pipes out]. split; [|destruct i as [|i]; [reflexivity|]];
    rewrite nth_error_repeat_inv; destruct (i <? _)%nat; reflexivity.
Qed.

Lemma KInv_init sgs : KInv sgs (init sgs).
Proof.
  intros i sg H sg0 H0. unfold init in H. cbn [stages] in H. rewrite nth_error_map, H0 in H.
  inversion H; subst sg; clear H. destruct (init_obs sgs i) as [-> ->].
  apply stage_ok_live; [reflexivity|]. split; [reflexivity|]. split; [symmetry; apply prod_nil|].
  unfold ctr_ok. cbn [set_st sdrop stake length]. repeat split; try lia.
  destruct (stake sg0); [f_equal; lia|reflexivity].
Qed.

Lemma lands_obs s i w ps o sg' : Inv s -> lands A C s i w ps o ->
  forall k, (k < length (stages s))%nat ->
    emitted (put_stage s i sg' ps o) k = emitted s k ++ (if (i =? k)%nat then w else []) /\
    consumed (put_stage s i sg' ps o) k = consumed s k.
Proof.
  intros HI Hl k Hk. pose proof (inv_len HI) as Hlen.
  unfold emitted, consumed, put_stage. cbn [pipes out]. destruct Hl as [Hl|p Hp Hroom].
  - split; [|reflexivity]. destruct (Nat.eqb_spec i k) as [<-|Hne]; destruct (nth_error (pipes s) _) eqn:E;
      try reflexivity; try (symmetry; apply app_nil_r).
    + pose proof (nth_error_Some_lt E). lia.
    + apply nth_error_None in E. lia.
  - split.
    + rewrite nth_error_upd. destruct (Nat.eqb_spec i k) as [<-|]; [rewrite Hp; reflexivity|].
      symmetry. apply app_nil_r.
    + destruct k as [|k]; [reflexivity|]. rewrite nth_error_upd.
      destruct (Nat.eqb_spec i k) as [<-|]; [rewrite Hp|]; reflexivity.
Qed.

Lemma read_obs s j p got b sg' : nth_error (pipes s) j = Some p ->
  forall k, emitted (put_stage s (S j) sg' (upd j (pop p got b) (pipes s)) (out s)) k = emitted s k /\
            consumed (put_stage s (S j) sg' (upd j (pop p got b) (pipes s)) (out s)) k =
            consumed s k ++ (if (S j =? k)%nat then got else []).
Proof.
  intros Hp k. unfold emitted, consumed, put_stage. cbn [pipes out]. split.
  - rewrite nth_error_upd. destruct (Nat.eqb_spec j k) as [<-|]; [rewrite Hp|]; reflexivity.
  - destruct k as [|k]; [reflexivity|]. change (S j =? S k)%nat with (j =? k)%nat. rewrite nth_error_upd.
    destruct (Nat.eqb_spec j k) as [<-|]; [rewrite Hp; reflexivity|]. symmetry. apply app_nil_r.
Qed.

Lemma exit_obs s i sg c sg' k :
  emitted (put_stage s i sg' (pipes (exit_stage s i sg c)) (out s)) k = emitted s k /\
  consumed (put_stage s i sg' (pipes (exit_stage s i sg c)) (out s)) k = consumed s k.
Proof.
  unfold emitted, consumed, put_stage. cbn [pipes out].
  split; [|destruct k as [|k]; [reflexivity|]]; rewrite exit_pipes_nth;
    (destruct (nth_error (pipes s) k) as [p|]; [|reflexivity]); cbn [option_map];
    (destruct (i =? k)%nat; [|destruct (i =? S k)%nat]); reflexivity.
Qed.

Lemma move_frame s i sg sg' ps o : Inv s -> move A C s i sg sg' ps o ->
  forall k, (k < length (stages s))%nat -> k <> i ->
    emitted (put_stage s i sg' ps o) k = emitted s k /\ consumed (put_stage s i sg' ps o) k = consumed s k.
Proof.
  intros HI Hm k Hk Hne.
  assert (E : (i =? k)%nat = false) by (apply Nat.eqb_neq; congruence).
  destruct Hm as [m ps o Hm1 Hm2 Hl | j p got b d t pend -> Hsp Hp Hb Hne' Hrel | c Hex].
  - destruct (lands_obs s i _ ps o (set_io sg (sdrop sg) (stake sg) (skipn m (spend sg))) HI Hl k Hk) as [-> ->].
    rewrite E, app_nil_r. auto.
  - destruct (read_obs s j p got b (set_io sg d t pend) Hp k) as [-> ->]. rewrite E, app_nil_r. auto.
  - apply exit_obs.
Qed.

Lemma prod_take sg0 K got :
  semit sg0 = true -> (sdrop sg0 <= length K)%nat ->
  (forall t0, stake sg0 = Some t0 -> (length K + length got <= sdrop sg0 + t0)%nat) ->
  prod sg0 (K ++ got) = prod sg0 K ++ got.
Proof.
  intros He Hd Ht. unfold prod. rewrite He, skipn_app.
  replace (sdrop sg0 - length K)%nat with 0%nat by lia. cbn [skipn].
  rewrite <- app_assoc. f_equal.
  destruct (stake sg0) as [t0|]; cbn [take_opt]; [|reflexivity].
  specialize (Ht t0 eq_refl).
  assert (Hl : length (skipn (sdrop sg0) K) = (length K - sdrop sg0)%nat) by apply skipn_length.
  rewrite firstn_app. rewrite (firstn_all2 (n := t0) (skipn (sdrop sg0) K)) by lia.
  f_equal. apply firstn_all2. lia.
Qed.

Lemma prod_drop sg0 K got :
  (length K + length got <= sdrop sg0)%nat -> prod sg0 (K ++ got) = prod sg0 K.
Proof.
  intros Hd. unfold prod. destruct (semit sg0); [|reflexivity]. f_equal.
  rewrite !skipn_all2; [reflexivity|lia|rewrite app_length; lia].
Qed.

Lemma prod_swallow sg0 K K' : semit sg0 = false -> prod sg0 K' = prod sg0 K.
Proof. intros He. unfold prod. rewrite He. reflexivity. Qed.

Lemma read_rel_ok sg0 sg K got d t pend :
  semit sg = semit sg0 -> ctr_ok sg0 sg K -> read_rel A sg got d t pend ->
  prod sg0 (K ++ got) = prod sg0 K ++ pend /\ ctr_ok sg0 (set_io sg d t pend) (K ++ got).
Proof.
  intros He [Hc1 [Hc2 Hc3]] Hrel. unfold ctr_ok. cbn [set_io sdrop stake]. rewrite app_length.
  destruct Hrel as [[Hd0 [Hq [-> [-> ->]]]] | [Hd0 [-> [-> [-> Hq]]]]].
  - (* dropping *)
    split; [rewrite app_nil_r; apply prod_drop; lia|]. repeat split.
    + lia.
    + rewrite Hc2. destruct (stake sg0); [f_equal; lia|reflexivity].
    + intros t0 Ht0. specialize (Hc3 t0 Ht0). lia.
  - (* forwarding or swallowing *)
    assert (Hlim : forall t0, stake sg0 = Some t0 -> (length K + length got <= sdrop sg0 + t0)%nat).
    { intros t0 Ht0. specialize (Hc3 t0 Ht0). rewrite Ht0 in Hc2. specialize (Hq _ Hc2). lia. }
    split.
    + rewrite He. destruct (semit sg0) eqn:Hem; [apply prod_take; [exact Hem|lia|exact Hlim]|].
      rewrite app_nil_r. apply prod_swallow. exact Hem.
    + repeat split; [lia| |exact Hlim]. rewrite Hc2. destruct (stake sg0); [f_equal; lia|reflexivity].
Qed.

Lemma KInv_step sgs s s' : Inv s -> KInv sgs s -> shape A C s s' -> KInv sgs s'.
Proof.
  intros HI HK Hsh. destruct Hsh as [sg Hb Hn | sg c Hpcn Hb Hn Hd | i sg sg' ps o Hn Hr Hm].
  - (* a spawn touches neither pipes nor output *)
    intros k z Hk. change (KAt sgs s k z). revert k z Hk.
    apply (upd_pointwise (KAt sgs s)); [|intros k z _ Hk; exact (HK k z Hk)].
    intros sg0 H0. specialize (HK _ _ Hn _ H0).
    assert (Hns : sst sg = NotStarted) by (apply (inv_started HI Hn); lia).
    unfold stage_ok in *. rewrite Hns in HK. exact HK.
  - exact HK.
  - pose proof (nth_error_Some_lt Hn) as Hi.
    pose proof (running_not_done Hr) as Hnd.
    unfold KInv. cbn [put_stage stages]. apply (upd_pointwise (KAt sgs (put_stage s i sg' ps o))).
    2:{ intros k z Hne Hk sg0 H0. pose proof (nth_error_Some_lt Hk) as Hkl.
        destruct (move_frame s i sg sg' ps o HI Hm k Hkl Hne) as [-> ->]. exact (HK k z Hk sg0 H0). }
    intros sg0 H0. destruct (proj1 (stage_ok_live Hnd) (HK _ _ Hn _ H0)) as [He [Heq Hctr]].
    destruct Hm as [m ps o Hm1 Hm2 Hl | j p got b d t pend -> Hsp Hp Hb Hne Hrel | c Hex].
    + (* it writes *)
      destruct (lands_obs s i _ ps o (set_io sg (sdrop sg) (stake sg) (skipn m (spend sg))) HI Hl i Hi) as [E1 E2].
      rewrite E1, E2, Nat.eqb_refl.
      apply stage_ok_live; [exact Hnd|]. split; [exact He|]. split; [|exact Hctr].
      cbn [set_io spend]. rewrite <- app_assoc, firstn_skipn. exact Heq.
    + (* it reads [got] *)
      destruct (read_obs s j p got b (set_io sg d t pend) Hp (S j)) as [E1 E2].
      rewrite E1, E2, Nat.eqb_refl.
      rewrite Hsp, app_nil_r in Heq. destruct (read_rel_ok sg0 sg _ got d t pend He Hctr Hrel) as [Hp' Hc'].
      apply stage_ok_live; [exact Hnd|]. split; [exact He|]. split; [|exact Hc'].
      cbn [set_io spend]. rewrite Hp', <- Heq. reflexivity.
    + (* it ends: normally only with nothing pending *)
      destruct (exit_obs s i sg c (stop A sg c) i) as [-> ->].
      split; [exact He|]. cbn [stop sst]. split; [rewrite <- Heq; apply prefix_app|].
      intros ->. destruct Hex as [[_ [Hs _]]|[Hc _]]; [|discriminate].
      rewrite Hs, app_nil_r in Heq. exact Heq.
Qed.

Lemma reach_KInv (sgs : list stage) (s : state) : reach C (init sgs) s -> KInv sgs s.
Proof.
  induction 1 as [|s l s' Hr IH Hn]; [apply KInv_init|].
  eapply KInv_step; [eapply reach_inv; exact Hr|exact IH|eapply next_shape; exact Hn].
Qed.

Lemma reach_facts (sgs : list stage) (s : state) : reach C (init sgs) s ->
  Inv s /\ KInv sgs s /\ length sgs = length (stages s).
Proof.
  intros Hr. split; [exact (reach_inv A C sgs s Hr)|].
  split; [exact (reach_KInv sgs s Hr)|exact (stages_length_reach A C sgs s Hr)].
Qed.

Lemma stage_ok_prefix {sg0 sg E K} : stage_ok sg0 sg E K -> prefix E (prod sg0 K).
Proof.
  intros [_ H]. destruct (sst sg); try exact (proj1 H); destruct H as [<- _]; apply prefix_app.
Qed.

Lemma consumed_prefix_emitted s i : Inv s -> prefix (consumed s (S i)) (emitted s i).
Proof.
  intros HI. unfold consumed, emitted. destruct (nth_error (pipes s) i) as [p|] eqn:Hp; [|apply prefix_nil].
  rewrite (proj1 (inv_pipe_ok HI Hp)). apply prefix_app.
Qed.

(** it is a prefix of what the left neighbour has emitted, which by induction and monotony of
    [prod] is a prefix of that one's stream *)
Lemma consumed_prefix sgs s : Inv s -> KInv sgs s -> length sgs = length (stages s) ->
  forall i sg0, nth_error sgs i = Some sg0 -> prefix (consumed s i) (xin sgs i).
Proof.
  intros HI HK Hlen. induction i as [|i IH]; intros sg0 H0; [apply prefix_refl|].
  pose proof (nth_error_Some_lt H0) as Hlt.
  destruct (nth_error sgs i) as [sgp|] eqn:Hp0; [|apply nth_error_None in Hp0; lia].
  destruct (nth_error_same_length _ (stages s) _ _ Hlen Hp0) as [sg Hn].
  eapply prefix_trans; [apply consumed_prefix_emitted; exact HI|].
  eapply prefix_trans; [exact (stage_ok_prefix (HK _ _ Hn _ Hp0))|].
  cbn [xin]. rewrite (streams_nth sgs [] i sgp Hp0). apply prod_mono. exact (IH sgp eq_refl).
Qed.

Lemma produced_prefix sgs s : Inv s -> KInv sgs s -> length sgs = length (stages s) ->
  forall i sg0, nth_error sgs i = Some sg0 ->
    prefix (prod sg0 (consumed s i)) (nth i (streams [] sgs) []).
Proof.
  intros HI HK Hlen i sg0 H0. rewrite (streams_nth sgs [] i sg0 H0).
  apply prod_mono. exact (consumed_prefix sgs s HI HK Hlen i sg0 H0).
Qed.

Lemma emitted_prefix sgs s : Inv s -> KInv sgs s -> length sgs = length (stages s) ->
  forall i sg0, nth_error sgs i = Some sg0 -> prefix (emitted s i) (nth i (streams [] sgs) []).
Proof.
  intros HI HK Hlen i sg0 H0. destruct (nth_error_same_length _ (stages s) _ _ Hlen H0) as [sg Hn].
  eapply prefix_trans; [exact (stage_ok_prefix (HK _ _ Hn _ H0))|].
  apply produced_prefix; assumption.
Qed.

Lemma last_nth {X} (l : list X) d : last l d = nth (pred (length l)) l d.
Proof.
  induction l as [|x r IH]; [reflexivity|]. destruct r as [|y r']; [reflexivity|].
  cbn [last length pred nth] in *. exact IH.
Qed.

Lemma spec_out_nth sgs : spec_out sgs = nth (pred (length sgs)) (streams [] sgs) [].
Proof. unfold spec_out. rewrite last_nth, streams_length. reflexivity. Qed.

Lemma last_stage (sgs : list stage) : sgs <> [] -> exists sg0, nth_error sgs (pred (length sgs)) = Some sg0.
Proof.
  intros Hne. destruct (nth_error sgs (pred (length sgs))) eqn:E; [eauto|].
  apply nth_error_None in E. destruct sgs; [contradiction|cbn in E; lia].
Qed.

Lemma emitted_last s : Inv s -> emitted s (pred (length (stages s))) = out s.
Proof.
  intros HI. unfold emitted. destruct (nth_error (pipes s) _) eqn:E; [|reflexivity].
  pose proof (nth_error_Some_lt E) as H.
  rewrite (inv_len HI) in H. lia.
Qed.

Theorem output_prefix (sgs : list stage) (s : state) : sgs <> [] -> reach C (init sgs) s -> prefix (out s) (spec_out sgs).
Proof.
  intros Hne Hr. destruct (reach_facts sgs s Hr) as [HI [HK Hlen]].
  destruct (last_stage sgs Hne) as [sg0 H0].
  rewrite spec_out_nth, <- (emitted_last s HI), <- Hlen. exact (emitted_prefix sgs s HI HK Hlen _ sg0 H0).
Qed.

(** ended normally — the first, or request used up, or it has consumed all that its left
    neighbour, ended normally too, has emitted — or by EPIPE after its right neighbour *)
Definition why_done (sgs : list stage) (s : state) (i : nat) (sg : stage) : Prop :=
  forall sg0 c, nth_error sgs i = Some sg0 -> sst sg = Done c ->
    (c = 0%nat /\ (i = 0%nat \/ saturated sg0 (consumed s i) \/
                  exists j sgj, i = S j /\ consumed s i = emitted s j /\
                                nth_error (stages s) j = Some sgj /\ sst sgj = Done 0%nat))
    \/ (c = EPIPE_STATUS /\ done_at A s (S i) = true).

Definition CInv (sgs : list stage) (s : state) : Prop :=
  forall i sg, nth_error (stages s) i = Some sg -> why_done sgs s i sg.

Lemma CInv_init sgs : CInv sgs (init sgs).
Proof.
  intros i sg H sg0 c _ Hd. unfold init in H. cbn [stages] in H. rewrite nth_error_map in H.
  destruct (nth_error sgs i); [|discriminate]. inversion H; subst. discriminate.
Qed.

Lemma why_done_frame sgs (s s' : state) i sg sg' :
  nth_error (stages s) i = Some sg -> is_done sg = false -> stages s' = upd i sg' (stages s) ->
  (forall k, (k < length (stages s))%nat -> k <> i ->
     emitted s' k = emitted s k /\ consumed s' k = consumed s k) ->
  forall k z, k <> i -> nth_error (stages s) k = Some z -> why_done sgs s k z -> why_done sgs s' k z.
Proof.
  intros Hn Hnd Hst Hobs k z Hne Hk Hw sg0 c H0 Hd.
  pose proof (nth_error_Some_lt Hk) as Hkl.
  destruct (Hw sg0 c H0 Hd) as [[-> Hwhy]|[-> Hdn]].
  - left. split; [reflexivity|]. rewrite (proj2 (Hobs k Hkl Hne)).
    destruct Hwhy as [->|[Hsat|[j [sgj [-> [Heq [Hnj Hsj]]]]]]]; [tauto|tauto|].
    right. right. exists j, sgj. split; [reflexivity|].
    (* the left neighbour has ended, so it is not the stage replaced *)
    assert (Hji : j <> i).
    { intros ->. rewrite Hn in Hnj. inversion Hnj; subst sgj. unfold is_done in Hnd. rewrite Hsj in Hnd. discriminate. }
    rewrite (proj1 (Hobs j ltac:(lia) Hji)), Hst, nth_error_upd_neq by congruence. auto.
  - right. split; [reflexivity|]. rewrite (done_at_upd A s s' i sg sg' (S k) Hn Hst).
    destruct (Nat.eqb_spec i (S k)) as [->|]; [|exact Hdn].
    unfold done_at in Hdn. rewrite Hn in Hdn. congruence.
Qed.

Lemma saturated_of_ctr sg0 sg K :
  ctr_ok sg0 sg K -> sdrop sg = 0%nat -> stake sg = Some 0%nat -> saturated sg0 K.
Proof.
  intros [Hc1 [Hc2 Hc3]] Hd Ht K' [c ->]. unfold prod. destruct (semit sg0); [|reflexivity]. f_equal.
  destruct (stake sg0) as [t0|]; [|rewrite Ht in Hc2; discriminate].
  rewrite Ht in Hc2. inversion Hc2 as [Hz]. rewrite Hd in Hc1.
  cbn [take_opt]. rewrite skipn_app, firstn_app.
  assert (Hl : length (skipn (sdrop sg0) K) = (length K - sdrop sg0)%nat) by apply skipn_length.
  replace (t0 - length (skipn (sdrop sg0) K))%nat with 0%nat by lia. cbn [firstn]. apply app_nil_r.
Qed.

Lemma CInv_step sgs s s' : Inv s -> length sgs = length (stages s) -> KInv sgs s -> CInv sgs s ->
  shape A C s s' -> CInv sgs s'.
Proof.
  intros HI Hlen HK HC Hsh. destruct Hsh as [sg Hb Hn | sg c Hpcn Hb Hn Hd | i sg sg' ps o Hn Hr Hm].
  - assert (Hns : sst sg = NotStarted) by (apply (inv_started HI Hn); lia).
    unfold CInv. cbn [stages]. apply (upd_pointwise (why_done sgs _)).
    + intros sg0 c _ Hd. discriminate.
    + assert (Hnd : is_done sg = false) by (unfold is_done; rewrite Hns; reflexivity).
      intros k z Hne Hk. apply (why_done_frame sgs s _ (pc s) sg (set_st sg Running) Hn Hnd);
        [reflexivity|intros; split; reflexivity|exact Hne|exact Hk|exact (HC k z Hk)].
  - exact HC.
  - pose proof (running_not_done Hr) as Hnd.
    unfold CInv. cbn [put_stage stages]. apply (upd_pointwise (why_done sgs (put_stage s i sg' ps o))).
    2:{ intros k z Hne Hk.
        apply (why_done_frame sgs s _ i sg sg' Hn Hnd);
          [reflexivity|exact (move_frame s i sg sg' ps o HI Hm)|exact Hne|exact Hk|exact (HC k z Hk)]. }
    (* ended now: this is the move that ends it *)
    intros sg0 c0 H0 Hd.
    destruct Hm as [m ps o Hm1 Hm2 Hl | j p got b d t pend -> Hsp Hp Hb Hne Hrel | c Hex];
      [cbn in Hd; congruence|cbn in Hd; congruence|].
    cbn in Hd. inversion Hd; subst c0; clear Hd.
    destruct (proj1 (stage_ok_live Hnd) (HK _ _ Hn _ H0)) as [_ [Heq Hctr]].
    rewrite (proj2 (exit_obs s i sg c (stop A sg c) i)).
    destruct Hex as [[-> [Hsp Hwhy]]|[-> [Hsp [p [Hp Hrd]]]]].
    + left. split; [reflexivity|]. destruct Hwhy as [->|[[Hd0 Ht0]|[j [p [-> [Hp [Hb Hw]]]]]]].
      * left. reflexivity.
      * right. left. eapply saturated_of_ctr; eauto.
      * (* the writer has ended, and not by EPIPE: that would need this stage to have ended first *)
        pose proof (proj1 (inv_wr HI Hp) Hw) as Hdj. destruct (inv_pipe_ok HI Hp) as [Hh _].
        unfold done_at in Hdj. destruct (nth_error (stages s) j) as [sgj|] eqn:Hnj; [|discriminate].
        unfold is_done in Hdj. destruct (sst sgj) as [| |cj] eqn:Hsj; try discriminate.
        destruct (nth_error_same_length _ sgs _ _ (eq_sym Hlen) Hnj) as [sg0j H0j].
        destruct (HC j sgj Hnj sg0j cj H0j Hsj) as [[-> _]|[-> Hdn]].
        2:{ exfalso. unfold done_at in Hdn. rewrite Hn in Hdn. congruence. }
        right. right. exists j, sgj. split; [reflexivity|].
        rewrite (proj1 (exit_obs s (S j) sg 0%nat (stop A sg 0%nat) j)). cbn [put_stage stages].
        rewrite nth_error_upd_neq by lia. split; [|auto].
        unfold consumed, emitted. rewrite Hp, Hh, Hb, app_nil_r. reflexivity.
    + right. split; [reflexivity|].
      pose proof (proj1 (inv_rd HI Hp) Hrd) as Hdn.
      unfold done_at, put_stage. cbn [stages]. rewrite nth_error_upd_neq by lia. exact Hdn.
Qed.

Lemma reach_CInv (sgs : list stage) (s : state) : reach C (init sgs) s -> CInv sgs s.
Proof.
  induction 1 as [|s l s' Hr IH Hn]; [apply CInv_init|].
  eapply CInv_step; [eapply reach_inv; exact Hr|exact (stages_length_reach A C sgs s Hr)|apply reach_KInv; exact Hr|exact IH|
                     eapply next_shape; exact Hn].
Qed.

Theorem output_complete (sgs : list stage) (s : state) :
  sgs <> [] -> reach C (init sgs) s -> final s -> out s = spec_out sgs.
Proof.
  intros Hne Hr Hfin. destruct (reach_facts sgs s Hr) as [HI [HK Hlen]]. pose proof (reach_CInv sgs s Hr) as HC.
  unfold final in Hfin.
  (* every stage that ended normally has emitted its whole stream *)
  assert (Hall : forall i sg0 sg, nth_error sgs i = Some sg0 -> nth_error (stages s) i = Some sg ->
            sst sg = Done 0%nat -> emitted s i = nth i (streams [] sgs) []).
  { induction i as [i IH] using lt_wf_ind. intros sg0 sg H0 Hn Hd.
    destruct (HK _ _ Hn _ H0) as [_ Hst]. rewrite Hd in Hst. destruct Hst as [_ Heq]. specialize (Heq eq_refl).
    rewrite (streams_nth sgs [] i sg0 H0).
    destruct (HC i sg Hn sg0 0%nat H0 Hd) as [[_ Hwhy]|[Hc _]]; [|discriminate].
    destruct Hwhy as [->|[Hsat|[j [sgj [-> [Hcj [Hnj Hsj]]]]]]].
    - rewrite Heq. reflexivity.
    - rewrite Heq. symmetry. apply Hsat. exact (consumed_prefix sgs s HI HK Hlen i sg0 H0).
    - rewrite Heq, Hcj. f_equal. destruct (nth_error_same_length _ sgs _ _ (eq_sym Hlen) Hnj) as [sg0j H0j].
      apply (IH j (Nat.lt_succ_diag_r j) sg0j sgj H0j Hnj Hsj). }
  destruct (last_stage sgs Hne) as [sg0 H0]. set (i := pred (length sgs)) in *.
  pose proof (nth_error_Some_lt H0) as Hil.
  destruct (nth_error_same_length _ (stages s) _ _ Hlen H0) as [sg Hn].
  destruct (inv_waited HI Hn) as [c Hc]; [subst i; lia|].
  (* the last stage cannot have ended by EPIPE: there is no stage after it *)
  destruct (HC i sg Hn sg0 c H0 Hc) as [[-> _]|[_ Hdn]].
  - rewrite spec_out_nth, <- (emitted_last s HI), <- Hlen. exact (Hall i sg0 sg H0 Hn Hc).
  - exfalso. unfold done_at in Hdn. destruct (nth_error (stages s) (S i)) eqn:E; [|discriminate].
    pose proof (nth_error_Some_lt E). subst i. lia.
Qed.

End Kahn.
