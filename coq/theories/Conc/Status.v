(** C11 — `$?`, PIPESTATUS, pipefail and `!` of a pipeline, and the trimming of a command
    substitution's output.

    Model: interp.rs [wait_for_pipeline_processes_and_update_status] (a left-to-right loop
    with two accumulators) followed by the `!` inversion of [Pipeline::execute];
    expansion.rs (NUL bytes dropped, then [trim_end_matches('\n')]).
    Spec: bash's manual, written as list functions / a declarative characterisation. *)
From BV Require Import Base.Prelude.

(** the loop of the Rust code *)
Record wacc := mkW { w_result : nat; w_lastfail : option nat; w_statuses : list nat }.

Definition wait_one (a : wacc) (code : nat) : wacc :=
  mkW code (if (code =? 0)%nat then w_lastfail a else Some code) (w_statuses a ++ [code]).

Definition wait_loop (codes : list nat) : wacc := fold_left wait_one codes (mkW 0%nat None []).

Definition pipeline_status (pipefail bang : bool) (codes : list nat) : nat * list nat :=
  let a := wait_loop codes in
  let r := if pipefail then match w_lastfail a with Some c => c | None => w_result a end
           else w_result a in
  let r := if bang then (if (r =? 0)%nat then 1%nat else 0%nat) else r in
  (r, w_statuses a).

(** bash's rule *)
Definition rightmost_failure (codes : list nat) : option nat :=
  find (fun c => negb (c =? 0)%nat) (rev codes).

Definition spec_status (pipefail bang : bool) (codes : list nat) : nat * list nat :=
  let r := if pipefail then match rightmost_failure codes with Some c => c | None => 0%nat end
           else last codes 0%nat in
  (if bang then (if (r =? 0)%nat then 1%nat else 0%nat) else r, codes).

Lemma last_nonempty_default (l : list nat) : forall x d d', last (x :: l) d = last (x :: l) d'.
Proof. induction l as [|y l IH]; intros x d d'; [reflexivity|]. cbn [last] in *. apply (IH y). Qed.

Lemma find_app' (f : nat -> bool) (l1 l2 : list nat) :
  find f (l1 ++ l2) = match find f l1 with Some x => Some x | None => find f l2 end.
Proof. induction l1 as [|x l1 IH]; [reflexivity|]. cbn. destruct (f x); [reflexivity | exact IH]. Qed.

Lemma wait_loop_gen codes : forall a,
  fold_left wait_one codes a =
  mkW (last codes (w_result a))
      (match rightmost_failure codes with Some c => Some c | None => w_lastfail a end)
      (w_statuses a ++ codes).
Proof.
  unfold rightmost_failure.
  induction codes as [|c r IH]; intros a.
  - cbn. rewrite app_nil_r. destruct a; reflexivity.
  - cbn [fold_left]. rewrite IH. unfold wait_one. cbn [w_result w_lastfail w_statuses].
    f_equal.
    + destruct r as [|y r']; [reflexivity|]. cbn [last]. apply last_nonempty_default.
    + cbn [rev]. rewrite find_app'.
      destruct (find (fun c0 => negb (c0 =? 0)%nat) (rev r)) as [x|]; [reflexivity|].
      cbn [find]. destruct (c =? 0)%nat; reflexivity.
    + rewrite <- app_assoc. reflexivity.
Qed.

Theorem pipeline_status_spec pipefail bang codes : codes <> [] ->
  pipeline_status pipefail bang codes = spec_status pipefail bang codes.
Proof.
  intros Hne. unfold pipeline_status, spec_status, wait_loop. rewrite wait_loop_gen.
  cbn [w_result w_lastfail w_statuses app].
  destruct pipefail.
  - destruct (rightmost_failure codes) as [c|] eqn:Hf; [reflexivity|].
    (* no failure: the last status is 0 *)
    assert (Hall : forall x, In x codes -> (x =? 0)%nat = true).
    { intros x Hin. unfold rightmost_failure in Hf.
      pose proof (find_none _ _ Hf x) as H. rewrite <- in_rev in H. specialize (H Hin).
      destruct (x =? 0)%nat; [reflexivity | discriminate]. }
    assert (Hl : last codes 0%nat = 0%nat).
    { destruct (exists_last Hne) as [l' [x ->]]. rewrite last_last.
      apply Nat.eqb_eq, Hall, in_or_app. right. left. reflexivity. }
    rewrite Hl. reflexivity.
  - reflexivity.
Qed.

Definition is_nl (c : char) : bool := N.eqb c NL.

Fixpoint drop_while (f : char -> bool) (s : str) : str :=
  match s with
  | c :: s' => if f c then drop_while f s' else s
  | [] => []
  end.

(** Rust: [s.truncate(s.trim_end_matches('\n').len())] *)
Definition strip_nl (s : str) : str := rev (drop_while is_nl (rev s)).
(** Rust: [retain(|c| c != '\0')] first *)
Definition cmdsub_value (s : str) : str := strip_nl (filter (fun c => negb (N.eqb c 0)) s).

Lemma drop_nl_spec s : exists k,
  s = repeat NL k ++ drop_while is_nl s /\
  match drop_while is_nl s with c :: _ => c <> NL | [] => True end.
Proof.
  induction s as [|c s' IH]; [exists 0%nat; split; [reflexivity|exact I]|]. destruct IH as [k [H1 H2]].
  cbn [drop_while]. change (is_nl c) with (N.eqb c NL). destruct (N.eqb_spec c NL) as [->|Hc].
  - exists (S k). split; [cbn; f_equal; exact H1|exact H2].
  - exists 0%nat. split; [reflexivity|exact Hc].
Qed.

Lemma rev_repeat {X} (x : X) n : rev (repeat x n) = repeat x n.
Proof.
  induction n as [|n IH]; [reflexivity|]. cbn [repeat rev]. rewrite IH. clear.
  induction n; cbn; [reflexivity|]. f_equal. assumption.
Qed.

(** [strip_nl] removes exactly the maximal suffix of newlines: the input is the result
    followed by newlines only, and the result does not end in a newline. *)
Theorem cmdsub_strip s : exists k,
  s = strip_nl s ++ repeat NL k /\ (strip_nl s = [] \/ exists s' c, strip_nl s = s' ++ [c] /\ c <> NL).
Proof.
  unfold strip_nl. destruct (drop_nl_spec (rev s)) as [k [H1 H2]]. exists k. split.
  - apply (f_equal (@rev char)) in H1. rewrite rev_involutive, rev_app_distr, rev_repeat in H1. exact H1.
  - destruct (drop_while is_nl (rev s)) as [|c r]; [left; reflexivity|].
    right. exists (rev r), c. split; [reflexivity|exact H2].
Qed.

Lemma strip_nl_no_trailing s c : c <> NL -> strip_nl (s ++ [c]) = s ++ [c].
Proof.
  intros Hc. unfold strip_nl. rewrite rev_app_distr. cbn [rev app drop_while].
  unfold is_nl. destruct (N.eqb_spec c NL); [contradiction|].
  cbn [rev]. rewrite rev_involutive. reflexivity.
Qed.

Lemma strip_nl_app_nl s : strip_nl (s ++ [NL]) = strip_nl s.
Proof.
  unfold strip_nl. rewrite rev_app_distr. cbn [rev app drop_while]. unfold is_nl at 1.
  rewrite N.eqb_refl. reflexivity.
Qed.
