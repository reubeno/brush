(** Theorems about the pattern translation: the backtracking engine model run on the emitted regex
    decides exactly the language that the specification assigns to the glob AST. *)
From Coq Require Import String.
From BV Require Import Base.Prelude Base.Codec Glob.Ast Glob.Parse Glob.Regex Glob.Translate Glob.Sem Glob.Known
  Glob.ClassProofs.
Local Open Scope N_scope.

Lemma In_splits (s u v : str) : In (u, v) (splits s) <-> s = u ++ v.
Proof.
  revert u. induction s as [|c r IH]; intros u; cbn [splits In].
  - split.
    + intros [H | []]. inversion H. reflexivity.
    + intros E. symmetry in E. apply app_eq_nil in E. destruct E as [-> ->]. left. reflexivity.
  - rewrite in_map_iff. split.
    + intros [H | [[u' v'] [H Hin]]]; inversion H; subst; [reflexivity|].
      apply IH in Hin. rewrite Hin. reflexivity.
    + destruct u as [|c' u]; cbn [app]; intros E.
      * left. rewrite E. reflexivity.
      * right. injection E as <- E. exists (u, v). split; [reflexivity | apply IH; exact E].
Qed.

Lemma existsb_splits (f : str * str -> bool) (s : str) :
  existsb f (splits s) = true <-> exists u v, s = u ++ v /\ f (u, v) = true.
Proof.
  rewrite existsb_exists. split.
  - intros [[u v] [Hin H]]. exists u, v. split; [apply In_splits; exact Hin | exact H].
  - intros [u [v [E H]]]. exists (u, v). split; [apply In_splits; exact E | exact H].
Qed.

Lemma existsb_splits_ext (f g : str * str -> bool) (s : str) :
  (forall u v, s = u ++ v -> f (u, v) = g (u, v)) -> existsb f (splits s) = existsb g (splits s).
Proof.
  intros H. apply eq_true_iff_eq. rewrite !existsb_splits.
  split; intros [u [v [E Hf]]]; exists u, v; (split; [exact E|]).
  - rewrite <- (H u v E). exact Hf.
  - rewrite (H u v E). exact Hf.
Qed.

Lemma split_length (s u v : str) : s = u ++ v -> length s = (length u + length v)%nat.
Proof. intros ->. apply app_length. Qed.

Definition adv (p : option char) (u : str) : option char := fold_left (fun _ c => Some c) u p.

Lemma adv_app p u v : adv p (u ++ v) = adv (adv p u) v.
Proof. unfold adv. apply fold_left_app. Qed.

Lemma rep_fuel (f : str -> bool) : forall n m w, (length w <= n)%nat -> (length w <= m)%nat -> rep f n w = rep f m w.
Proof.
  induction n as [|n IH]; intros m w Hn Hm.
  - destruct w; [destruct m; reflexivity | cbn in Hn; lia].
  - destruct w as [|c w]; [destruct m; reflexivity|].
    destruct m as [|m]; [cbn in Hm; lia|]. cbn [rep].
    apply existsb_splits_ext. intros u v E. cbn [fst snd].
    destruct u as [|c' u]; [reflexivity|]. f_equal.
    apply split_length in E. cbn [length] in E, Hn, Hm. apply IH; lia.
Qed.

Section Engine.
  Variable multi : bool.
  Variable ci : bool.
  (* dotall is on: the emitted "." stands for ? and *, which match a line feed *)
  Notation run := (rm multi true ci).

  Lemma is_some_orelse (a : res) (b : unit -> res) : is_some (orelse a b) = is_some a || is_some (b tt).
  Proof. destruct a; reflexivity. Qed.

  (* a match succeeds exactly when the input splits into a word of [L] and a remainder that the
     continuation accepts *)
  Definition decides (m : option char -> str -> kont -> res) (L : str -> bool) : Prop :=
    forall p s k, is_some (m p s k) = true <->
                  exists u v, s = u ++ v /\ L u = true /\ is_some (k (adv p u) v) = true.

  Lemma star_loop_decides_fuel m1 L : decides m1 L ->
    forall n p s k, (length s <= n)%nat ->
      (is_some (star_loop m1 n p s k) = true <->
       exists u v, s = u ++ v /\ rep L n u = true /\ is_some (k (adv p u) v) = true).
  Proof.
    intros Hm. induction n as [|n IH]; intros p s k Hn.
    - destruct s; [|cbn in Hn; lia]. cbn [star_loop]. split.
      + intros H. exists [], []. repeat split; assumption.
      + intros [u [v [E [_ H]]]]. symmetry in E. apply app_eq_nil in E. destruct E as [-> ->]. exact H.
    - cbn [star_loop]. rewrite is_some_orelse, orb_true_iff, (Hm p s _). split.
      + intros [[u [v [E [Hu Hk]]]] | Hk].
        * destruct (Nat.ltb (length v) (length s)) eqn:Hlt; [|discriminate].
          apply Nat.ltb_lt in Hlt. pose proof (split_length _ _ _ E) as El.
          apply IH in Hk; [|lia]. destruct Hk as [u2 [v2 [E2 [Hr Hk]]]].
          exists (u ++ u2), v2. split; [rewrite E, E2, app_assoc; reflexivity|].
          split; [|rewrite adv_app; exact Hk].
          (* the iteration consumed something, so [u] is the first factor of [u ++ u2] *)
          destruct u as [|c u]; [cbn [length] in El; lia|].
          cbn [app rep]. apply existsb_splits. exists (c :: u), u2. split; [reflexivity|].
          cbn [fst snd is_nil negb andb]. rewrite Hu, Hr. reflexivity.
        * exists [], s. split; [reflexivity|]. split; [reflexivity | exact Hk].
      + intros [w [v2 [E [Hr Hk]]]]. destruct w as [|c w].
        * right. cbn in E. subst s. exact Hk.
        * left. cbn [rep] in Hr. apply existsb_splits in Hr. destruct Hr as [u [u2 [Ew Hr]]].
          cbn [fst snd] in Hr. rewrite !andb_true_iff in Hr. destruct Hr as [[Hne Hu] Hr].
          exists u, (u2 ++ v2). split; [rewrite E, Ew, app_assoc; reflexivity|]. split; [exact Hu|].
          assert (Hlen : (length (u2 ++ v2) < length s)%nat).
          { rewrite E, Ew, !app_length. destruct u; [discriminate | cbn [length]; lia]. }
          pose proof Hlen as Hlt. apply Nat.ltb_lt in Hlt. rewrite Hlt.
          apply IH; [lia|]. exists u2, v2. split; [reflexivity|]. split; [exact Hr|].
          rewrite <- adv_app, <- Ew. exact Hk.
  Qed.

  Lemma one_char_decides (test : char -> bool) (m : option char -> str -> kont -> res) :
    (forall p s k, m p s k = match s with x :: s' => if test x then k (Some x) s' else None | [] => None end) ->
    decides m (fun u => match u with [x] => test x | _ => false end).
  Proof.
    intros Hm p s k. rewrite Hm. split.
    - destruct s as [|x s']; [discriminate|]. destruct (test x) eqn:Ht; [|discriminate].
      intros H. exists [x], s'. split; [reflexivity|]. split; [exact Ht | exact H].
    - intros [u [v [E [Hu H]]]]. destruct u as [|x [|y u]]; try discriminate.
      cbn [app] in E. subst s. rewrite Hu. exact H.
  Qed.

  Lemma any_decides : decides (run RAny) (fun u => match u with [_] => true | _ => false end).
  Proof. apply (one_char_decides (fun _ => true)). intros p s k. reflexivity. Qed.

  Lemma cat_decides m1 m2 L1 L2 : decides m1 L1 -> decides m2 L2 ->
    decides (fun p s k => m1 p s (fun p' s' => m2 p' s' k))
            (fun w => existsb (fun uv => L1 (fst uv) && L2 (snd uv)) (splits w)).
  Proof.
    intros H1 H2 p s k. rewrite (H1 p s _). split.
    - intros [u [v [E [Hu Hk]]]]. apply H2 in Hk. destruct Hk as [u2 [v2 [E2 [Hu2 Hk]]]].
      exists (u ++ u2), v2. split; [rewrite E, E2, app_assoc; reflexivity|]. split.
      + apply existsb_splits. exists u, u2. split; [reflexivity|]. cbn [fst snd]. rewrite Hu, Hu2. reflexivity.
      + rewrite adv_app. exact Hk.
    - intros [w [v2 [E [Hw Hk]]]]. apply existsb_splits in Hw. destruct Hw as [u [u2 [Ew Hw]]].
      cbn [fst snd] in Hw. apply andb_true_iff in Hw. destruct Hw as [Hu Hu2].
      exists u, (u2 ++ v2). split; [rewrite E, Ew, app_assoc; reflexivity|]. split; [exact Hu|].
      apply H2. exists u2, v2. split; [reflexivity|]. split; [exact Hu2|]. rewrite <- adv_app, <- Ew. exact Hk.
  Qed.

  Lemma alt_decides m1 m2 L1 L2 : decides m1 L1 -> decides m2 L2 ->
    decides (fun p s k => orelse (m1 p s k) (fun _ => m2 p s k)) (fun w => L1 w || L2 w).
  Proof.
    intros H1 H2 p s k. rewrite is_some_orelse, orb_true_iff, (H1 p s k), (H2 p s k). split.
    - intros [[u [v [E [Hu Hk]]]] | [u [v [E [Hu Hk]]]]]; exists u, v; rewrite Hu; repeat split; auto using orb_true_r.
    - intros [u [v [E [Hu Hk]]]]. apply orb_true_iff in Hu. destruct Hu as [Hu|Hu]; [left|right]; exists u, v; auto.
  Qed.

  Lemma eps_decides : decides (fun p s k => k p s) is_nil.
  Proof.
    intros p s k. split.
    - intros H. exists [], s. auto.
    - intros [u [v [E [Hu Hk]]]]. destruct u; [|discriminate]. cbn in E. subst v. exact Hk.
  Qed.

  Lemma decides_ext m L1 L2 : (forall w, L1 w = L2 w) -> decides m L1 -> decides m L2.
  Proof.
    intros He H p s k. rewrite (H p s k). split; intros [u [v [E [Hu Hk]]]]; exists u, v.
    - rewrite <- He. auto.
    - rewrite He. auto.
  Qed.

  Lemma star_loop_decides m1 L : decides m1 L ->
    decides (fun p s k => star_loop m1 (length s) p s k) (fun w => rep L (length w) w).
  Proof.
    intros Hm p s k. rewrite (star_loop_decides_fuel m1 L Hm (length s) p s k (le_n _)).
    split; intros [u [v [E [Hr Hk]]]]; exists u, v; pose proof (split_length _ _ _ E) as El.
    - rewrite (rep_fuel L (length u) (length s)); [auto | lia | lia].
    - rewrite (rep_fuel L (length s) (length u)); [auto | lia | lia].
  Qed.

  Lemma lower_same c : lower c = to_lower c.
  Proof. reflexivity. Qed.
  Lemma upper_same c : upper c = to_upper c.
  Proof. reflexivity. Qed.
  Lemma chr_eq_same a b : chr_eq ci a b = ch_eq ci a b.
  Proof. reflexivity. Qed.

  (** The engine reads the emitted class text as the union of the members
      ([Decide.class_benign_ok] gives a syntactic sufficient condition). *)
  Definition class_ok (neg : bool) (items : list bitem) : Prop :=
    tr_items items <> [] ->
    forall x, set_matches ci neg (tr_items items) x = xorb neg (bracket_has ci items x).

  Fixpoint ok (g : gpat) : Prop :=
    match g with GNil => True | GCons a r => ok_atom a /\ ok r end
  with ok_atom (a : gatom) : Prop :=
    match a with
    | GBracket neg items => class_ok neg items
    | GExt k alts => k <> EBang /\ ok_alts alts
    | _ => True
    end
  with ok_alts (l : galts) : Prop :=
    match l with AOne g => ok g | ACons g r => ok g /\ ok_alts r end.

  Lemma dead_bracket_has (items : list bitem) : tr_items items = [] -> forall x, bracket_has ci items x = false.
  Proof.
    intros H x. unfold bracket_has. destruct ci; rewrite <- !tr_items_has, H; reflexivity.
  Qed.

  Theorem tr_decides :
    (forall g, ok g -> decides (run (tr g)) (gm ci g)) /\
    (forall a, ok_atom a -> decides (run (tr_atom a)) (gm_atom ci a)) /\
    (forall l, ok_alts l -> decides (run (tr_alts l)) (gm_alts ci l)).
  Proof.
    apply glob_mutind.
    - (* GNil *) intros _. cbn [tr gm]. apply eps_decides.
    - (* GCons *) intros a IHa r IHr [Ha Hr]. cbn [tr gm].
      exact (cat_decides _ _ _ _ (IHa Ha) (IHr Hr)).
    - (* GLit *) intros c _. cbn [tr_atom gm_atom].
      apply (one_char_decides (fun x => chr_eq ci c x)). intros p s k. reflexivity.
    - (* GAny *) intros _. exact any_decides.
    - (* GStar *) intros _. cbn [tr_atom gm_atom].
      apply (decides_ext _ (fun w => rep (fun u => match u with [_] => true | _ => false end) (length w) w)).
      + intros w. induction w as [|c w IH]; [reflexivity|].
        cbn [length rep gm_atom]. apply existsb_splits. exists [c], w. split; [reflexivity|].
        cbn [fst snd is_nil negb andb]. exact IH.
      + cbn [rm]. exact (star_loop_decides _ _ any_decides).
    - (* GBracket *) intros neg items Hok. cbn [gm_atom].
      apply (one_char_decides (fun x => xorb neg (bracket_has ci items x))). intros p s k.
      cbn [tr_atom]. destruct (tr_items items) as [|i0 l0] eqn:Hti.
      + (* every range was empty: "." or "(?!)" *)
        destruct neg, s as [|x s']; cbn [rm]; rewrite ?(dead_bracket_has items Hti); reflexivity.
      + assert (Hne : tr_items items <> []) by (rewrite Hti; discriminate).
        rewrite <- Hti. destruct s as [|x s']; [reflexivity|]. cbn [rm].
        rewrite (Hok Hne x). reflexivity.
    - (* GExt *) intros k alts IH [Hk Hal]. specialize (IH Hal). cbn [tr_atom gm_atom].
      destruct k; try congruence.
      + (* EPlus *) exact (cat_decides _ _ _ _ IH (star_loop_decides _ _ IH)).
      + (* EAt *) cbn [rm]. exact IH.
      + (* EQuest *) cbn [rm].
        apply (decides_ext _ (fun w => gm_alts ci alts w || is_nil w)).
        * intros w. apply orb_comm.
        * exact (alt_decides _ _ _ _ IH eps_decides).
      + (* EStar *) cbn [rm]. exact (star_loop_decides _ _ IH).
    - (* AOne *) intros g IH Hg. cbn [tr_alts gm_alts]. exact (IH Hg).
    - (* ACons *) intros g IHg r IHr [Hg Hr]. cbn [tr_alts gm_alts].
      exact (alt_decides _ _ _ _ (IHg Hg) (IHr Hr)).
  Qed.

  Theorem translate_correct g s : ok g -> whole multi true ci (tr g) s = glob_match ci g s.
  Proof.
    intros Hok. apply eq_true_iff_eq. unfold whole, glob_match.
    rewrite (proj1 tr_decides g Hok None s _). split.
    - intros [u [v [E [Hu Hk]]]]. destruct v; [|discriminate]. rewrite app_nil_r in E. subst u. exact Hu.
    - intros H. exists s, []. rewrite app_nil_r. auto.
  Qed.
End Engine.

(** [^r$] searched anywhere = [r] matched against the whole subject, unless the [m] flag is on. *)
Section Anchors.
  Variable dotall : bool.
  Variable ci : bool.

  Lemma star_loop_ext (m1 : option char -> str -> kont -> res) :
    (forall p s k1 k2, (forall p' s', k1 p' s' = k2 p' s') -> m1 p s k1 = m1 p s k2) ->
    forall n p s k1 k2, (forall p' s', k1 p' s' = k2 p' s') ->
      star_loop m1 n p s k1 = star_loop m1 n p s k2.
  Proof.
    intros Hm. induction n as [|n IH]; intros p s k1 k2 Hk; cbn [star_loop].
    - apply Hk.
    - rewrite (Hm p s _ (fun p' s' => if Nat.ltb (length s') (length s) then star_loop m1 n p' s' k2 else None)).
      + rewrite (Hk p s). reflexivity.
      + intros p' s'. destruct (Nat.ltb (length s') (length s)); [apply IH; exact Hk | reflexivity].
  Qed.

  Lemma lazy_loop_ext (m1 : option char -> str -> kont -> res) :
    (forall p s k1 k2, (forall p' s', k1 p' s' = k2 p' s') -> m1 p s k1 = m1 p s k2) ->
    forall n p s k1 k2, (forall p' s', k1 p' s' = k2 p' s') ->
      lazy_loop m1 n p s k1 = lazy_loop m1 n p s k2.
  Proof.
    intros Hm. induction n as [|n IH]; intros p s k1 k2 Hk; cbn [lazy_loop].
    - apply Hk.
    - rewrite (Hk p s).
      rewrite (Hm p s _ (fun p' s' => if Nat.ltb (length s') (length s) then lazy_loop m1 n p' s' k2 else None)).
      + reflexivity.
      + intros p' s'. destruct (Nat.ltb (length s') (length s)); [apply IH; exact Hk | reflexivity].
  Qed.

  Lemma rm_ext multi r : forall p s k1 k2, (forall p' s', k1 p' s' = k2 p' s') ->
    rm multi dotall ci r p s k1 = rm multi dotall ci r p s k2.
  Proof.
    induction r as [ | c | | neg items | | a IHa b IHb | a IHa b IHb | a IHa | a IHa | a IHa | a IHa | a IHa
                   | a IHa | a IHa | a IHa | | ];
      intros p s k1 k2 Hk; cbn [rm].
    - (* REps *) apply Hk.
    - (* RChr *) destruct s as [|x s']; [reflexivity|]. destruct (chr_eq ci c x); [apply Hk | reflexivity].
    - (* RAny *) destruct s as [|x s']; [reflexivity|]. destruct (dotall || negb (N.eqb x 10)); [apply Hk | reflexivity].
    - (* RSet *) destruct s as [|x s']; [reflexivity|]. destruct (set_matches ci neg items x); [apply Hk | reflexivity].
    - (* RFail *) reflexivity.
    - (* RCat *) apply IHa. intros p' s'. apply IHb. exact Hk.
    - (* RAlt *) rewrite (IHa p s k1 k2 Hk), (IHb p s k1 k2 Hk). reflexivity.
    - (* RGrp *) apply IHa. exact Hk.
    - (* RNcg *) apply IHa. exact Hk.
    - (* RStar *) apply star_loop_ext; [exact IHa | exact Hk].
    - (* RPlus *) apply IHa. intros p' s'. apply star_loop_ext; [exact IHa | exact Hk].
    - (* ROpt *) rewrite (IHa p s k1 k2 Hk), (Hk p s). reflexivity.
    - (* RPlusLazy *) apply IHa. intros p' s'. apply lazy_loop_ext; [exact IHa | exact Hk].
    - (* RNegLook: the body runs against [kid], not against the continuation *)
      destruct (rm multi dotall ci a p s kid); [reflexivity | apply Hk].
    - (* RAtomic: likewise *)
      destruct (rm multi dotall ci a p s kid) as [[p' s']|]; [apply Hk | reflexivity].
    - (* RBol *) destruct (at_bol multi p); [apply Hk | reflexivity].
    - (* REol *) destruct (at_eol multi s); [apply Hk | reflexivity].
  Qed.

  Theorem anchored_search_is_whole r s :
    search false dotall ci (RCat RBol (RCat r REol)) s = whole false dotall ci r s.
  Proof.
    unfold search, whole.
    assert (Hlater : forall c s', search_from false dotall ci (RCat RBol (RCat r REol)) (Some c) s' = false).
    { intros c s'. revert c. induction s' as [|d s' IH]; intros c; cbn [search_from rm at_bol andb is_some orb]; [reflexivity|].
      apply IH. }
    assert (Hfirst : rm false dotall ci (RCat RBol (RCat r REol)) None s kid =
                     rm false dotall ci r None s (fun p' s' => match s' with [] => Some (p', s') | _ => None end)).
    { cbn [rm at_bol]. apply rm_ext. intros p' s'. cbn [rm at_eol andb]. destruct s'; reflexivity. }
    destruct s as [|c s'].
    - cbn [search_from]. rewrite Hfirst, orb_false_r. reflexivity.
    - cbn [search_from]. rewrite Hfirst, Hlater, orb_false_r. reflexivity.
  Qed.
End Anchors.

(** A quoted piece, escaped by [Pattern::to_regex_str] with [regex_char_is_special] and then
    read by the pattern PEG, is the sequence of its characters and matches exactly itself. *)

Lemma escape_lit_cons c q : escape_lit (c :: q) = (if regex_special c then [92; c] else [c]) ++ escape_lit q.
Proof. reflexivity. Qed.

Lemma head_escape_lit q : match escape_lit q with d :: _ => N.eqb d c_lparen = false | [] => True end.
Proof.
  destruct q as [|c q]; [exact I|]. rewrite escape_lit_cons.
  destruct (regex_special c) eqn:Hc; cbn [app].
  - reflexivity.
  - exact (neq_by regex_special c 40 false Hc eq_refl).
Qed.

Lemma parse_piece_esc f ext d r : parse_piece (S f) ext (c_bslash :: d :: r) = Some (GLit d, r).
Proof. reflexivity. Qed.

(** the hypothesis on [r]: before a "(", [c] could be an extglob prefix *)
Lemma parse_piece_plain f ext c r : regex_special c = false ->
  match r with d :: _ => N.eqb d c_lparen = false | [] => True end ->
  parse_piece (S f) ext (c :: r) = Some (GLit c, r).
Proof.
  intros Hc Hr. pose proof (fun y => neq_by regex_special c y false Hc) as Hne.
  cbn [parse_piece]. unfold c_bslash, c_lbrack, c_quest, c_star.
  rewrite (Hne 92), (Hne 91), (Hne 63), (Hne 42) by reflexivity. cbn [first_some].
  destruct ext; [|reflexivity]. destruct (ext_kind c); [|reflexivity].
  destruct r as [|d r']; [reflexivity|]. rewrite Hr. reflexivity.
Qed.

Lemma parse_seq_cons f ext c r a r1 : parse_piece f ext (c :: r) = Some (a, r1) ->
  parse_seq (S f) ext false (c :: r) = let '(g, r') := parse_seq f ext false r1 in (GCons a g, r').
Proof. intros H. cbn [parse_seq andb]. rewrite H. reflexivity. Qed.

Lemma parse_seq_escape_lit ext : forall q fuel, (length q + 2 <= fuel)%nat ->
  parse_seq fuel ext false (escape_lit q) = (lits q, []).
Proof.
  induction q as [|c q IH]; intros fuel Hf.
  - destruct fuel; [lia|]. reflexivity.
  - destruct fuel as [|[|f]]; [lia | cbn [length] in Hf; lia |].
    assert (Hrest : parse_seq (S f) ext false (escape_lit q) = (lits q, [])) by (apply IH; cbn [length] in Hf; lia).
    rewrite escape_lit_cons. destruct (regex_special c) eqn:Hc; cbn [app].
    + etransitivity; [apply parse_seq_cons, parse_piece_esc|]. rewrite Hrest. reflexivity.
    + etransitivity; [apply parse_seq_cons, parse_piece_plain; [exact Hc | apply head_escape_lit]|].
      rewrite Hrest. reflexivity.
Qed.

Lemma escape_lit_length q : (length q <= length (escape_lit q))%nat.
Proof.
  induction q as [|c q IH]; [cbn; lia|].
  rewrite escape_lit_cons, app_length. destruct (regex_special c); cbn [length]; unfold char in *; lia.
Qed.

Theorem parse_escape_lit ext q : parse ext (escape_lit q) = lits q.
Proof.
  unfold parse. rewrite parse_seq_escape_lit; [reflexivity|].
  unfold parse_fuel. pose proof (escape_lit_length q). lia.
Qed.

Lemma gm_lits q : forall s, glob_match false (lits q) s = str_eqb q s.
Proof.
  unfold glob_match. induction q as [|c q IH]; intros s.
  - destruct s; reflexivity.
  - cbn [lits fold_right gm]. fold (lits q). apply eq_true_iff_eq. rewrite existsb_splits. split.
    + intros [u [v [E H]]]. cbn [fst snd gm_atom] in H. apply andb_true_iff in H. destruct H as [Hu Hv].
      destruct u as [|x [|y u]]; try discriminate. unfold ch_eq in Hu. apply N.eqb_eq in Hu. subst x.
      rewrite E. cbn [app str_eqb]. rewrite N.eqb_refl, <- IH. exact Hv.
    + intros H. destruct s as [|x s]; [discriminate|]. cbn [str_eqb] in H. apply andb_true_iff in H.
      destruct H as [Hx Hs]. apply N.eqb_eq in Hx. subst x. exists [c], s. split; [reflexivity|].
      cbn [fst snd gm_atom]. unfold ch_eq. rewrite N.eqb_refl, IH, Hs. reflexivity.
Qed.

Lemma ok_lits ci q : ok ci (lits q).
Proof. induction q as [|c q IH]; cbn; auto. Qed.

Theorem literal_identity multi ext q s :
  whole multi true false (tr (parse ext (pieces_text [PLit q]))) s = str_eqb q s.
Proof.
  unfold pieces_text. cbn [flat_map]. rewrite app_nil_r, parse_escape_lit.
  rewrite translate_correct; [apply gm_lits | apply ok_lits].
Qed.

(** The conjuncts of [c08_tables]; [flags_as_modelled] also feeds [whole_string].
    [engine_meta]: characters with a meaning at the top level of the engine's regex syntax *)
Definition engine_meta : list char := [46; 94; 36; 40; 41; 92; 43; 42; 63; 124; 91; 123].

Lemma needs_escaping_covers_engine_meta : forallb needs_escaping engine_meta = true.
Proof. reflexivity. Qed.

(** every escaped top-level char is ASCII punctuation, for which "\c" is the literal c *)
Lemma needs_escaping_only_punct :
  forallb (fun c => negb (is_alnum c) && N.ltb c 128 && N.ltb 32 c) needs_escaping_chars = true.
Proof. reflexivity. Qed.

Lemma flags_as_modelled : flag_other = false /\ pattern_uses_flags = true /\ flag_dotall = true /\
                          anchor_start = true /\ anchor_end = true.
Proof. repeat split; reflexivity. Qed.

(** in the configuration read from the source *)

Theorem whole_string ci g s : ok ci g ->
  search eff_multi eff_dotall ci (anchored (tr g)) s = glob_match ci g s.
Proof.
  intros Hok. unfold eff_multi, eff_dotall, anchored.
  destruct flags_as_modelled as [_ [-> [-> [-> ->]]]]. cbn [andb].
  (* the "m" flag is off: compile_regex emits "(?s)" alone *)
  unfold flag_multi. rewrite anchored_search_is_whole. apply translate_correct. exact Hok.
Qed.

(** with the [m] flag the statement is false *)
Theorem whole_string_refuted_multi :
  exists g s, ok false g /\ search true true false (RCat RBol (RCat (tr g) REol)) s = true /\ glob_match false g s = false.
Proof.
  exists (lits [97; 98; 99]), [120; 10; 97; 98; 99]. split; [apply ok_lits|]. split; vm_compute; reflexivity.
Qed.

Definition s_of (s : string) : str := lit s.

(** !(a|ab) matches "ab" *)
Theorem negation_refuted :
  exists g s, has_neg g = true /\ whole false true false (tr g) s = true /\ glob_match false g s = false.
Proof.
  exists (parse true (s_of "!(a|ab)")), (s_of "ab"). repeat split; vm_compute; reflexivity.
Qed.

(** repaired (787d8bd): a leading ']' is a member, and the PEG twin reads these patterns as the
    specification does *)
Theorem leading_bracket_repaired :
  spec_matches false false (s_of "[]a]") (s_of "]") = true /\
  whole false true false (tr (parse false (s_of "[]a]"))) (s_of "]") = true /\
  whole false true false (tr (parse false (s_of "[]a]"))) (s_of "a") = true /\
  whole false true false (tr (parse false (s_of "[!]]"))) (s_of "]") = false /\
  whole false true false (tr (parse false (s_of "[!]]"))) (s_of "a") = true /\
  print_regex (tr (parse false (s_of "[]-a]"))) = [91; 92; 93; 45; 97; 93].
Proof. repeat split; vm_compute; reflexivity. Qed.

(** repaired (f7a052e): an escaped letter or digit in a bracket is that character *)
Theorem escaped_alnum_repaired :
  whole false true false (tr (parse false [91; 92; 97; 93])) (s_of "a") = true /\
  whole false true false (tr (parse false [91; 92; 97; 93])) [7] = false /\
  print_regex (tr (parse false [91; 92; 97; 92; 100; 93])) = s_of "[ad]".
Proof. repeat split; vm_compute; reflexivity. Qed.

(** [+--] does not match "," *)
Theorem class_ops_refuted :
  exists p s, k_class_ops false p = true /\
              whole false true false (tr (parse false p)) s = false /\ spec_matches false false p s = true.
Proof.
  exists (s_of "[+--]"), (s_of ","). repeat split; vm_compute; reflexivity.
Qed.

(** *(() matches "" although its extglob is unterminated for bash *)
Theorem paren_nesting_refuted :
  exists p s, k_paren_nest true p = true /\
              whole false true false (tr (parse true p)) s = true /\ spec_matches true false p s = false.
Proof.
  exists (s_of "*(()"), []. repeat split; vm_compute; reflexivity.
Qed.

(** the non-vacuity example ([Decide.ex_pat_ok]) *)
Definition ex_pat : gpat := parse true (s_of "a?*[!b-d]+(x|y*)@(|z)\*").

Lemma class_ok_by_cases ci neg items :
  (forall x, set_matches ci neg (tr_items items) x = xorb neg (bracket_has ci items x)) -> class_ok ci neg items.
Proof. intros H _. exact H. Qed.
