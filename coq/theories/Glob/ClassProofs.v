(** The engine's class parser (regex-syntax, as modelled in Glob/Regex.v) reads the class text
    emitted for a *benign* member list as the plain union of the members. *)
From BV Require Import Base.Prelude Glob.Ast Glob.Regex Glob.Translate Glob.Sem Glob.Known.
Local Open Scope N_scope.

Definition citem_has (i : citem) (x : char) : bool :=
  match i with
  | CCls n => ascii_class n x
  | CRng lo hi => in_rng (bmem_char lo) (bmem_char hi) x
  | CMem m => N.eqb x (bmem_char m)
  end.

Definition item_valid (i : citem) : Prop :=
  match i with CRng lo hi => N.leb (bmem_char lo) (bmem_char hi) = true | _ => True end.

(** [tr_items] drops the ranges with lo > hi: they had no member anyway *)

Lemma in_range_empty lo hi x : N.leb lo hi = false -> in_range lo hi x = false.
Proof.
  intros Hle. unfold in_range. apply N.leb_gt in Hle.
  destruct (N.leb lo x) eqn:H1; [|reflexivity]. destruct (N.leb x hi) eqn:H2; [|reflexivity].
  apply N.leb_le in H1, H2. lia.
Qed.

Lemma tr_items_valid items : Forall item_valid (tr_items items).
Proof.
  induction items as [|i l IH]; [constructor|]. cbn [tr_items].
  destruct i as [n|lo hi|m]; cbn [tr_item].
  - constructor; [exact I | exact IH].
  - destruct (N.leb (bmem_char lo) (bmem_char hi)) eqn:Hle; [constructor; [exact Hle | exact IH] | exact IH].
  - constructor; [exact I | exact IH].
Qed.

Lemma tr_items_has items x : existsb (fun i => citem_has i x) (tr_items items) = items_have items x.
Proof.
  induction items as [|i l IH]; [reflexivity|]. cbn [tr_items items_have existsb]. fold (items_have l x).
  destruct i as [n|lo hi|m]; cbn [tr_item item_has].
  - cbn [existsb citem_has]. rewrite IH. reflexivity.
  - destruct (N.leb (bmem_char lo) (bmem_char hi)) eqn:Hle.
    + cbn [existsb citem_has]. rewrite IH. reflexivity.
    + rewrite IH, (in_range_empty _ _ x Hle). reflexivity.
  - cbn [existsb citem_has]. rewrite IH. reflexivity.
Qed.

(* a literal token for [c] that starts neither a set operator ("--", "&&", "~~") nor a negation *)
Definition good_tok (t : tok) (c : char) : Prop :=
  (t = TRaw c \/ t = TLit c) /\ is_raw t 45 = false /\ is_raw t 38 = false /\ is_raw t 126 = false /\ is_raw t 94 = false.

Lemma good_raw (f : char -> bool) b c : f c = b ->
  f 45 = negb b -> f 38 = negb b -> f 126 = negb b -> f 94 = negb b -> good_tok (TRaw c) c.
Proof.
  intros Hc H45 H38 H126 H94. pose proof (fun y => neq_by f c y b Hc) as Hne.
  unfold good_tok. cbn [is_raw]. repeat split; auto.
Qed.

Lemma plain_mem_tok m : plain_mem m = true -> exists t, mem_toks m = [t] /\ good_tok t (bmem_char m).
Proof.
  destruct m as [c| |c]; cbn [plain_mem mem_toks bmem_char]; intros H.
  - destruct (peg_escaped_alnum_plain && is_alnum c) eqn:Hsw.
    + apply andb_true_iff in Hsw. destruct Hsw as [_ Hal].
      exists (TRaw c). split; [reflexivity | apply (good_raw _ _ c Hal); reflexivity].
    + assert (Hna : is_alnum c = false).
      { destruct (is_alnum c) eqn:Hal; [|reflexivity]. rewrite andb_true_r in Hsw. rewrite Hsw in H. discriminate H. }
      clear H. unfold is_alnum in Hna. fold (in_rng 48 57 c) (in_rng 65 90 c) (in_rng 97 122 c) in Hna.
      apply orb_false_iff in Hna. destruct Hna as [H H3]. apply orb_false_iff in H. destruct H as [H1 H2].
      unfold esc_tok. rewrite H1. unfold is_ascii_alpha. rewrite H2, H3. cbn [orb].
      destruct (rs_meta c) eqn:Hm.
      * exists (TLit c). split; [reflexivity|]. repeat split; auto.
      * exists (TRaw c). split; [reflexivity | apply (good_raw _ _ c Hm); reflexivity].
  - exists (TLit 91). split; [reflexivity|]. repeat split; auto.
  - apply negb_true_iff in H.
    pose proof (fun y => neq_by (fun x => mem x _) c y false H) as Hne. cbn beta in Hne.
    assert (Hin : mem c [91; 92; 93] = false).
    { unfold mem. cbn [existsb]. rewrite (Hne 91), (Hne 92), (Hne 93) by reflexivity. reflexivity. }
    rewrite Hin. exists (TRaw c). split; [reflexivity | apply (good_raw (fun x => mem x _) _ c H); reflexivity].
Qed.

(* after a literal, a "-" opens a range unless it is the last token *)
Definition rest_ok (rest : list tok) : Prop :=
  match rest with d :: r2 => is_raw d 45 = true -> r2 = [] | [] => True end.

Lemma op_at_good t c rest : good_tok t c -> op_at t rest = None.
Proof.
  intros [_ [H1 [H2 [H3 _]]]]. unfold op_at. destruct rest; [reflexivity|]. rewrite H1, H2, H3. reflexivity.
Qed.

Lemma single_step t c rest acc : good_tok t c -> rest_ok rest ->
  cls_union (t :: rest) acc = cls_union rest (cadd1 acc c).
Proof.
  intros Hg Hr. pose proof (op_at_good t c rest Hg) as Hop.
  (* a raw and an escaped literal take the same branch *)
  destruct Hg as [[-> | ->] _]; cbn [cls_union]; rewrite Hop.
  all: destruct rest as [|d r2]; [reflexivity|].
  all: destruct (is_raw d 45) eqn:Hd; [|reflexivity].
  all: cbn [rest_ok] in Hr; rewrite (Hr Hd); reflexivity.
Qed.

Lemma range_step t1 c1 t2 c2 rest acc : good_tok t1 c1 -> good_tok t2 c2 -> N.leb c1 c2 = true ->
  cls_union (t1 :: TRaw 45 :: t2 :: rest) acc = cls_union rest (caddr acc c1 c2).
Proof.
  intros Hg1 Hg2 Hle. destruct Hg2 as [Ht2 [H245 _]].
  (* the tail is hidden so that the recursive calls in the branches not taken stay folded *)
  remember (TRaw 45 :: t2 :: rest) as r eqn:Er.
  pose proof (op_at_good t1 c1 r Hg1) as Hop.
  destruct Hg1 as [[-> | ->] _]; cbn [cls_union]; rewrite Hop, Er; cbn [is_raw]; rewrite N.eqb_refl, H245;
    destruct Ht2 as [-> | ->]; rewrite Hle; reflexivity.
Qed.

(** A benign member list: an optional leading dash, plain members with non-empty ranges, an
    optional final dash *)

Definition item_fine (i : citem) : Prop := plain_item i = true /\ item_valid i.

Definition dash_item : citem := CMem (MRaw 45).
Definition opt_dash (b : bool) : list citem := if b then [dash_item] else [].
Definition opt_dash_tok (b : bool) : list tok := if b then [TRaw 45] else [].

Lemma toks_opt_dash b : flat_map item_toks (opt_dash b) = opt_dash_tok b.
Proof. destruct b; reflexivity. Qed.

Lemma is_dash_item_eq i : is_dash_item i = true -> i = dash_item.
Proof.
  destruct i as [n|lo hi|m]; try discriminate. destruct m as [c| |c]; try discriminate.
  cbn [is_dash_item]. intros H. apply N.eqb_eq in H. subst. reflexivity.
Qed.

Lemma plain_then_dash_split l : plain_then_dash l = true ->
  exists L td, l = L ++ opt_dash td /\ Forall (fun i => plain_item i = true) L.
Proof.
  induction l as [|i l IH]; intros H.
  - exists [], false. split; [reflexivity | constructor].
  - destruct l as [|j l'].
    + cbn [plain_then_dash] in H. apply orb_true_iff in H. destruct H as [H|H].
      * exists [i], false. split; [reflexivity | repeat constructor; exact H].
      * apply is_dash_item_eq in H. subst. exists [], true. split; [reflexivity | constructor].
    + change (plain_then_dash (i :: j :: l')) with (plain_item i && plain_then_dash (j :: l')) in H.
      apply andb_true_iff in H. destruct H as [Hi Hl]. destruct (IH Hl) as [L [td [E HL]]].
      exists (i :: L), td. split; [cbn [app]; rewrite E; reflexivity | constructor; assumption].
Qed.

Lemma class_benign_split l : class_benign l = true ->
  exists hd L td, l = opt_dash hd ++ L ++ opt_dash td /\ Forall (fun i => plain_item i = true) L.
Proof.
  destruct l as [|i l']; cbn [class_benign].
  - exists false, [], false. split; [reflexivity | constructor].
  - destruct (is_dash_item i) eqn:Hd; intros H.
    + apply is_dash_item_eq in Hd. subst i. destruct (plain_then_dash_split l' H) as [L [td [-> HL]]].
      exists true, L, td. split; [reflexivity | exact HL].
    + destruct (plain_then_dash_split (i :: l') H) as [L [td [E HL]]].
      exists false, L, td. split; [exact E | exact HL].
Qed.

Lemma first_tok_plain i : plain_item i = true ->
  exists t r, item_toks i = t :: r /\ is_raw t 45 = false /\ is_raw t 94 = false.
Proof.
  intros Hp. destruct i as [n|lo hi|m]; cbn [item_toks plain_item] in *.
  - exists (TCls n), []. repeat split; reflexivity.
  - apply andb_true_iff in Hp. destruct Hp as [Hlo _]. apply plain_mem_tok in Hlo.
    destruct Hlo as [t [-> [_ [H45 [_ [_ H94]]]]]]. cbn [app]. eexists _, _. split; [reflexivity|]. split; assumption.
  - apply plain_mem_tok in Hp. destruct Hp as [t [-> [_ [H45 [_ [_ H94]]]]]]. eexists _, _. split; [reflexivity|]. split; assumption.
Qed.

Lemma fine_plain L : Forall item_fine L -> Forall (fun i => plain_item i = true) L.
Proof. apply Forall_impl. intros i Hi. exact (proj1 Hi). Qed.

Lemma rest_ok_toks L td : Forall (fun i => plain_item i = true) L ->
  rest_ok (flat_map item_toks L ++ opt_dash_tok td).
Proof.
  intros HL. destruct L as [|i L].
  - destruct td; cbn; auto.
  - inversion HL as [|? ? Hi _]; subst. destruct (first_tok_plain i Hi) as [t [r [Ht [H45 _]]]].
    cbn [flat_map]. rewrite Ht. cbn [app rest_ok]. intros H. congruence.
Qed.

Definition cadd_item (acc : cset) (i : citem) : cset :=
  match i with
  | CCls n => cunion acc (ascii_class n)
  | CRng lo hi => caddr acc (bmem_char lo) (bmem_char hi)
  | CMem m => cadd1 acc (bmem_char m)
  end.

Lemma cadd_item_has acc i x : cadd_item acc i x = acc x || citem_has i x.
Proof. destruct i; reflexivity. Qed.

Lemma item_step i rest acc : item_fine i -> rest_ok rest ->
  cls_union (item_toks i ++ rest) acc = cls_union rest (cadd_item acc i).
Proof.
  intros [Hp Hv] Hrest. destruct i as [n|lo hi|m]; cbn [item_toks plain_item item_valid cadd_item] in *.
  - reflexivity.
  - apply andb_true_iff in Hp. destruct Hp as [Hlo Hhi].
    apply plain_mem_tok in Hlo. destruct Hlo as [t1 [-> Hg1]].
    apply plain_mem_tok in Hhi. destruct Hhi as [t2 [-> Hg2]].
    exact (range_step t1 _ t2 _ rest acc Hg1 Hg2 Hv).
  - apply plain_mem_tok in Hp. destruct Hp as [t [-> Hg]]. exact (single_step t _ rest acc Hg Hrest).
Qed.

Lemma cls_union_plain : forall (L : list citem) (td : bool) (acc : cset),
  Forall item_fine L ->
  exists f, cls_union (flat_map item_toks L ++ opt_dash_tok td) acc = UOk f None /\
            forall x, f x = acc x || existsb (fun i => citem_has i x) L || (td && N.eqb x 45).
Proof.
  induction L as [|i L IH]; intros td acc HL.
  - cbn [flat_map app existsb]. destruct td; cbn [opt_dash_tok].
    + exists (cadd1 acc 45). split; [reflexivity|]. intros x. unfold cadd1. rewrite orb_false_r. reflexivity.
    + exists acc. split; [reflexivity|]. intros x. rewrite !orb_false_r. reflexivity.
  - inversion HL as [|? ? Hi HL']; subst.
    cbn [flat_map existsb]. rewrite <- app_assoc, (item_step i _ acc Hi (rest_ok_toks L td (fine_plain L HL'))).
    destruct (IH td (cadd_item acc i) HL') as [f [Hf Hx]].
    exists f. split; [exact Hf|]. intros x. rewrite Hx, cadd_item_has, !orb_assoc. reflexivity.
Qed.

Lemma cls_ops_none ci n f : cls_ops ci n f None = COk f.
Proof. destruct n; reflexivity. Qed.

Lemma strip_dashes_head hd ts acc :
  strip_dashes (opt_dash_tok hd ++ ts) acc = strip_dashes ts (if hd then cadd1 acc 45 else acc).
Proof. destruct hd; reflexivity. Qed.

(** The body of [class_sem] after the "[^" test. [acc0]: the accumulator after the leading dash,
    if any, has been stripped; [fuel] is irrelevant as no operator follows *)
Lemma class_body ci L td acc0 fuel :
  Forall item_fine L ->
  exists f,
    (let '(ts', acc) := strip_dashes (flat_map item_toks L ++ opt_dash_tok td) acc0 in
     match cls_union ts' acc with UOk g more => cls_ops ci fuel g more | UErr => CErr | UUnm => CUnm end) = COk f /\
    forall x, f x = acc0 x || existsb (fun i => citem_has i x) L || (td && N.eqb x 45).
Proof.
  intros HL. destruct L as [|i L].
  - cbn [flat_map app existsb]. destruct td; cbn [opt_dash_tok strip_dashes is_raw]; [rewrite N.eqb_refl|]; cbn [cls_union].
    + rewrite cls_ops_none. eexists. split; [reflexivity|]. intros x. unfold cadd1. rewrite orb_false_r. reflexivity.
    + rewrite cls_ops_none. eexists. split; [reflexivity|]. intros x. rewrite !orb_false_r. reflexivity.
  - inversion HL as [|? ? Hi HL']; subst. destruct (first_tok_plain i (proj1 Hi)) as [t [r [Ht [H45 _]]]].
    assert (Hstrip : strip_dashes (flat_map item_toks (i :: L) ++ opt_dash_tok td) acc0 =
                     (flat_map item_toks (i :: L) ++ opt_dash_tok td, acc0)).
    { cbn [flat_map]. rewrite Ht. cbn [app strip_dashes]. rewrite H45. reflexivity. }
    rewrite Hstrip. destruct (cls_union_plain (i :: L) td acc0 HL) as [f [Hf Hx]]. rewrite Hf, cls_ops_none.
    exists f. split; [reflexivity | exact Hx].
Qed.

Theorem class_benign_sem ci neg cits : class_benign cits = true -> Forall item_valid cits ->
  exists f, class_sem ci neg cits = COk f /\ forall x, f x = existsb (fun i => citem_has i x) cits.
Proof.
  intros Hb Hv. destruct (class_benign_split cits Hb) as [hd [L [td [-> HL]]]].
  apply Forall_app in Hv. destruct Hv as [_ Hv]. apply Forall_app in Hv. destruct Hv as [HvL _].
  pose proof (Forall_and HL HvL) as HF.
  unfold class_sem. rewrite !flat_map_app, !toks_opt_dash.
  assert (Hcaret : starts_caret (opt_dash_tok hd ++ flat_map item_toks L ++ opt_dash_tok td) = false).
  { destruct hd; [reflexivity|]. cbn [opt_dash_tok app]. destruct L as [|i1 L1]; [destruct td; reflexivity|].
    inversion HL as [|? ? Hi1 _]; subst. destruct (first_tok_plain i1 Hi1) as [t [r [Ht [_ H94]]]].
    cbn [flat_map]. rewrite Ht. exact H94. }
  rewrite Hcaret, andb_false_r, strip_dashes_head.
  destruct (class_body ci L td (if hd then cadd1 cempty 45 else cempty)
              (length (opt_dash_tok hd ++ flat_map item_toks L ++ opt_dash_tok td)) HF) as [f [Hf Hx]].
  exists f. split; [exact Hf|]. intros x. rewrite Hx, !existsb_app.
  unfold cadd1, cempty, opt_dash, dash_item.
  destruct hd, td; cbn [existsb citem_has bmem_char andb orb];
    destruct (N.eqb x 45), (existsb (fun i => citem_has i x) L); reflexivity.
Qed.
