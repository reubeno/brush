(** A decidable sufficient condition for the hypotheses of [translate_correct]. *)
From Coq Require Import String.
From BV Require Import Base.Prelude Base.Codec Glob.Ast Glob.Regex Glob.Translate Glob.Sem Glob.Known
  Glob.Proofs Glob.ClassProofs.
Local Open Scope N_scope.

Theorem class_benign_ok ci neg items : class_benign (tr_items items) = true -> class_ok ci neg items.
Proof.
  intros Hb _ x. unfold set_matches.
  destruct (class_benign_sem ci neg (tr_items items) Hb (tr_items_valid items)) as [f [-> Hx]].
  unfold fold_set, bracket_has. destruct ci; rewrite !Hx, !tr_items_has; reflexivity.
Qed.

Fixpoint okb (g : gpat) : bool :=
  match g with GNil => true | GCons a r => okb_atom a && okb r end
with okb_atom (a : gatom) : bool :=
  match a with
  | GBracket neg items => class_benign (tr_items items)
  | GExt k alts => (match k with EBang => false | _ => true end) && okb_alts alts
  | _ => true
  end
with okb_alts (l : galts) : bool :=
  match l with AOne g => okb g | ACons g r => okb g && okb_alts r end.

Theorem okb_ok ci :
  (forall g, okb g = true -> ok ci g) /\
  (forall a, okb_atom a = true -> ok_atom ci a) /\
  (forall l, okb_alts l = true -> ok_alts ci l).
Proof.
  apply glob_mutind.
  - intros _. exact I.
  - intros a IHa r IHr H. apply andb_true_iff in H. destruct H as [H1 H2].
    split; [exact (IHa H1) | exact (IHr H2)].
  - intros c _. exact I.
  - intros _. exact I.
  - intros _. exact I.
  - intros neg items H. exact (class_benign_ok ci neg items H).
  - intros k alts IH H. apply andb_true_iff in H. destruct H as [Hk Ha].
    split; [destruct k; congruence | exact (IH Ha)].
  - intros g IHg H. exact (IHg H).
  - intros g IHg r IHr H. apply andb_true_iff in H. destruct H as [H1 H2].
    split; [exact (IHg H1) | exact (IHr H2)].
Qed.

Theorem translate_correct_dec multi ci g s : okb g = true ->
  whole multi true ci (tr g) s = glob_match ci g s.
Proof. intros H. apply translate_correct. apply (proj1 (okb_ok ci)). exact H. Qed.

Theorem whole_string_dec ci g s : okb g = true ->
  search eff_multi eff_dotall ci (anchored (tr g)) s = glob_match ci g s.
Proof. intros H. apply whole_string. apply (proj1 (okb_ok ci)). exact H. Qed.

(** non-vacuity: [ex_pat] satisfies the hypothesis, with a subject it matches and one it does not *)
Definition ex_yes : str := lit "aqzexyyy*".
Definition ex_no : str := lit "aqzcx*".
Example ex_pat_ok : okb ex_pat = true /\ ex_pat <> GNil /\
  glob_match false ex_pat ex_yes = true /\ glob_match false ex_pat ex_no = false.
Proof. repeat split; try (vm_compute; reflexivity). vm_compute. discriminate. Qed.
