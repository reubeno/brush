(** Pathname expansion: dot-file policy and sortedness of the model of [Pattern::expand]. *)
From Coq Require Import String Sorted.
From BV Require Import Base.Prelude Base.Codec Glob.Ast Glob.Expand.
Local Open Scope N_scope.

Lemma str_leb_total a : forall b, str_leb a b = false -> str_leb b a = true.
Proof.
  induction a as [|x a IH]; intros [|y b] H; cbn [str_leb] in *; try discriminate; try reflexivity.
  destruct (N.ltb x y) eqn:Hxy; [discriminate|]. destruct (N.eqb x y) eqn:Exy.
  - apply N.eqb_eq in Exy. subst y. rewrite Hxy, N.eqb_refl. apply IH. exact H.
  - apply N.ltb_ge in Hxy. apply N.eqb_neq in Exy. assert (Hlt : N.ltb y x = true) by (apply N.ltb_lt; lia).
    rewrite Hlt. reflexivity.
Qed.

Section Sort.
  Context {A : Type} (le : A -> A -> bool).
  Hypothesis le_total : forall a b, le a b = false -> le b a = true.
  Notation R := (fun a b => le a b = true).

  Lemma insert_by_in x y l : In y (insert_by le x l) -> x = y \/ In y l.
  Proof.
    induction l as [|z l IH]; cbn [insert_by]; [exact (fun H => H)|].
    destruct (le x z); [exact (fun H => H)|]. intros [H | H].
    - right. left. exact H.
    - destruct (IH H) as [H' | H']; [left; exact H' | right; right; exact H'].
  Qed.

  Lemma sort_by_in y l : In y (sort_by le l) -> In y l.
  Proof.
    induction l as [|x l IH]; cbn [sort_by fold_right]; [exact (fun H => H)|].
    intros H. apply insert_by_in in H. destruct H as [H | H]; [left; exact H | right; exact (IH H)].
  Qed.

  Lemma insert_by_hdrel a x l : HdRel R a l -> le a x = true -> HdRel R a (insert_by le x l).
  Proof.
    intros Hl Hax. destruct l as [|y l]; cbn [insert_by]; [constructor; exact Hax|].
    destruct (le x y); constructor; [exact Hax | inversion Hl; assumption].
  Qed.

  Lemma insert_by_sorted x l : Sorted R l -> Sorted R (insert_by le x l).
  Proof.
    induction l as [|y l IH]; intros Hs; cbn [insert_by].
    - constructor; constructor.
    - destruct (le x y) eqn:Hxy.
      + constructor; [exact Hs | constructor; exact Hxy].
      + inversion Hs as [|? ? Hs' Hhd]; subst. constructor; [apply IH; exact Hs'|].
        apply insert_by_hdrel; [exact Hhd | apply le_total; exact Hxy].
  Qed.

  Lemma sort_by_sorted l : Sorted R (sort_by le l).
  Proof.
    induction l as [|x l IH]; cbn [sort_by fold_right]; [constructor|]. apply insert_by_sorted. exact IH.
  Qed.
End Sort.

Definition sorted_strs (l : list str) : Prop := Sorted (fun a b => str_leb a b = true) l.

Section Theorems.
  Variable ls : path -> option (list str).
  Variable ex : path -> bool.
  Variable ext ci dotglob : bool.

  Notation step := (step ls ex ext ci dotglob).
  Notation walk := (walk ls ex ext ci dotglob).

  Definition dot_rule (c n : str) : Prop := starts_dot n = true -> dotglob = true \/ starts_dot c = true.

  Lemma dir_sort_in y l : In y (dir_sort l) -> In y l.
  Proof. unfold dir_sort. destruct expand_sorts_per_dir; [apply sort_by_in | auto]. Qed.

  Lemma step_in c paths p1 : In p1 (step c paths) -> exists p0 n, In p0 paths /\ p1 = p0 ++ [n] /\ dot_rule c n.
  Proof.
    unfold Expand.step. destruct (requires_expansion ext c).
    - intros H. apply in_flat_map in H. destruct H as [p0 [Hp0 H]]. destruct (ls p0) as [es|]; [|destruct H].
      apply in_map_iff in H. destruct H as [e [<- He]]. apply dir_sort_in in He. apply filter_In in He.
      destruct He as [_ Hk]. unfold keep in Hk. apply andb_true_iff in Hk. destruct Hk as [_ Hd].
      exists p0, e. split; [exact Hp0|]. split; [reflexivity|]. intros Hdot. unfold dot_ok in Hd. rewrite Hdot in Hd.
      cbn [negb orb] in Hd. apply orb_true_iff in Hd. exact Hd.
    - intros H. apply filter_In in H. destruct H as [H _]. apply in_map_iff in H. destruct H as [p0 [<- Hp0]].
      exists p0, c. split; [exact Hp0|]. split; [reflexivity|]. intros Hdot. right. exact Hdot.
  Qed.

  Lemma walk_in : forall comps paths r, In r (walk comps paths) ->
    exists p0 suf, In p0 paths /\ r = p0 ++ suf /\ Forall2 dot_rule comps suf.
  Proof.
    induction comps as [|c cs IH]; intros paths r H; cbn [Expand.walk] in H.
    - exists r, []. split; [exact H|]. split; [rewrite app_nil_r; reflexivity | constructor].
    - apply IH in H. destruct H as [p1 [suf [Hp1 [-> Hsuf]]]]. apply step_in in Hp1.
      destruct Hp1 as [p0 [n [Hp0 [-> Hn]]]]. exists p0, (n :: suf). split; [exact Hp0|].
      split; [rewrite <- app_assoc; reflexivity | constructor; assumption].
  Qed.

  (** no name starting with a dot is produced for a component that does not start with a dot,
      unless dotglob is on — for every directory tree *)
  Theorem dotfile_policy comps r : In r (walk comps [[]]) -> Forall2 dot_rule comps r.
  Proof.
    intros H. apply walk_in in H. destruct H as [p0 [suf [Hp0 [-> Hs]]]]. destruct Hp0 as [<- | []]. exact Hs.
  Qed.

  (** a7bf7f8: the final list is sorted, whatever the listing order *)
  Theorem expand_sorted_all comps : sorted_strs (expand ls ex ext ci dotglob comps).
  Proof.
    assert (H : expand_sorts_results = true) by reflexivity.
    unfold expand, final_sort. rewrite H. apply sort_by_sorted. exact str_leb_total.
  Qed.
End Theorems.

(** regression example: directories a and a- (whole-path order, '-' before '/') *)
Theorem multilevel_sort_repaired :
  expand_model true false false [lit "a/x"; lit "a-/x"] (lit "*/x") = Some [lit "a-/x"; lit "a/x"] /\
  expand_spec_words true false false [lit "a/x"; lit "a-/x"] (lit "*/x") = [lit "a-/x"; lit "a/x"].
Proof. split; vm_compute; reflexivity. Qed.

Lemma sort_flag : expand_sorts_per_dir || expand_sorts_results = true.
Proof. reflexivity. Qed.
