(** Glob patterns as the PEG of brush-parser/src/pattern.rs sees them. *)
From BV Require Import Base.Prelude.
From BV Require Export gen.C08RegexTables.

(** A bracket member as [single_char_bracket_member] reads it: [\c], the char '[', or any raw char
    other than ']'. *)
Inductive bmem :=
| MEsc (c : char)
| MOpen
| MRaw (c : char).

Definition bmem_char (m : bmem) : char :=
  match m with MEsc c => c | MOpen => 91%N | MRaw c => c end.

Inductive bitem :=
| BClass (name : str)            (* [:name:] *)
| BRange (lo hi : bmem)          (* lo-hi; contributes nothing when lo > hi *)
| BOne (m : bmem).

(** Sequences, atoms and alternative lists (mutual, so that no nested lists are needed). An
    alternative list is never empty: the PEG's "no branches" case [@()] is one empty branch. *)
Inductive gpat :=
| GNil
| GCons (a : gatom) (rest : gpat)
with gatom :=
| GLit (c : char)
| GAny                            (* ? *)
| GStar                           (* * *)
| GBracket (neg : bool) (items : list bitem)
| GExt (k : ekind) (alts : galts)
with galts :=
| AOne (g : gpat)
| ACons (g : gpat) (rest : galts).

Scheme gpat_mind := Induction for gpat Sort Prop
  with gatom_mind := Induction for gatom Sort Prop
  with galts_mind := Induction for galts Sort Prop.
Combined Scheme glob_mutind from gpat_mind, gatom_mind, galts_mind.

Fixpoint gapp (a b : gpat) : gpat :=
  match a with GNil => b | GCons x r => GCons x (gapp r b) end.

Definition lits (s : str) : gpat := fold_right (fun c g => GCons (GLit c) g) GNil s.

Definition mem (c : char) (l : list char) : bool := existsb (N.eqb c) l.

Lemma mem_In c l : mem c l = true <-> In c l.
Proof.
  unfold mem. rewrite existsb_exists. split.
  - intros [x [Hx He]]. apply N.eqb_eq in He. subst. exact Hx.
  - intros H. exists c. split; [exact H | apply N.eqb_refl].
Qed.

Lemma neq_by (f : char -> bool) c y b : f c = b -> f y = negb b -> N.eqb c y = false.
Proof. intros Hc Hy. apply N.eqb_neq. intros ->. rewrite Hc in Hy. destruct b; discriminate. Qed.

Definition is_alnum (c : char) : bool :=
  (N.leb 48 c && N.leb c 57) || (N.leb 65 c && N.leb c 90) || (N.leb 97 c && N.leb c 122).

Definition needs_escaping (c : char) : bool := mem c needs_escaping_chars.
Definition regex_special (c : char) : bool := mem c regex_special_chars.

Fixpoint has_neg (g : gpat) : bool :=
  match g with GNil => false | GCons a r => has_neg_atom a || has_neg r end
with has_neg_atom (a : gatom) : bool :=
  match a with
  | GExt k alts => (match k with EBang => true | _ => false end) || has_neg_alts alts
  | _ => false
  end
with has_neg_alts (l : galts) : bool :=
  match l with AOne g => has_neg g | ACons g r => has_neg g || has_neg_alts r end.
