(** C20 — "exactly once, in recording order", stated on the abstract machine of Hist/Spec.v with
    ghost tags: every recorded command gets the tag (session, serial number); tags do not influence
    behaviour (erasure theorem), and the tags in the file are duplicate-free, ordered per session,
    and include every saved (unflagged) recorded command. *)
From Coq Require Import Sorting.Sorted.
From BV Require Import Base.Prelude Hist.Model Hist.Spec Hist.Proofs.

Definition tag := (nat * nat)%type.
Definition titem := (option tag * aitem)%type.
Record tworld := { tfile : list (option tag * (str * option Z)); tsess : list (list titem); tts : bool; tnext : nat }.

Definition t_unsaved (l : list titem) : list titem := filter (fun x => snd (snd x)) l.
Definition t_clear (l : list titem) : list titem := map (fun x => (fst x, (fst (snd x), false))) l.
Definition tdelete (l : list titem) (off : Z) : list titem :=
  if off =? 0 then l
  else if 0 <? off then remove_nth (Z.to_nat (off - 1)) l
  else let idx := Z.of_nat (length l) + off in
       if idx <? 0 then l else remove_nth (Z.to_nat idx) l.

Definition tstep (w : tworld) (o : op) : tworld :=
  match o with
  | Add sid c now =>
      match trim c with
      | [] => w
      | c' => {| tfile := tfile w;
                 tsess := update_nth sid (fun l => l ++ [(Some (sid, tnext w), (c', Some now, true))]) (tsess w);
                 tts := tts w; tnext := S (tnext w) |}
      end
  | Save sid =>
      match nth_error (tsess w) sid with
      | Some l =>
          {| tfile := tfile w ++ map (fun x => (fst x, (fst (fst (snd x)), if tts w then snd (fst (snd x)) else None))) (t_unsaved l);
             tsess := update_nth sid t_clear (tsess w); tts := tts w; tnext := tnext w |}
      | None => w
      end
  | SaveFail _ => w
  | Write _ => w   (* outside the exactly-once statement: see [no_write] *)
  | NewSession =>
      {| tfile := tfile w; tsess := tsess w ++ [map (fun x => (None, (fst (snd x), snd (snd x), false))) (tfile w)];
         tts := tts w; tnext := tnext w |}
  | Delete sid off =>
      {| tfile := tfile w; tsess := update_nth sid (fun l => tdelete l off) (tsess w); tts := tts w; tnext := tnext w |}
  | Clear sid =>
      {| tfile := tfile w; tsess := update_nth sid (fun _ => []) (tsess w); tts := tts w; tnext := tnext w |}
  | ToggleTs => {| tfile := tfile w; tsess := tsess w; tts := negb (tts w); tnext := tnext w |}
  end.

Definition terase (w : tworld) : aworld :=
  {| afile := map snd (tfile w); asess := map (fun l : list titem => map snd l) (tsess w); ats := tts w |}.

Fixpoint somes {A} (l : list (option A)) : list A :=
  match l with [] => [] | Some a :: l' => a :: somes l' | None :: l' => somes l' end.
Definition file_tags (w : tworld) : list tag := somes (map fst (tfile w)).
Definition tags_of (l : list titem) : list tag := somes (map fst l).
Definition serials_of (sid : nat) (ts : list tag) : list nat :=
  map snd (filter (fun t => Nat.eqb (fst t) sid) ts).

Lemma tdelete_eq l off : tdelete l off = delete_at off l.
Proof. reflexivity. Qed.

Lemma subl_filter {A} (f : A -> bool) (l : list A) : subl (filter f l) l.
Proof. induction l as [|x l IH]; cbn; [constructor|]. destruct (f x); constructor; exact IH. Qed.

Lemma subl_map {A B} (f : A -> B) l1 l2 : subl l1 l2 -> subl (map f l1) (map f l2).
Proof. induction 1; cbn; constructor; assumption. Qed.

Lemma subl_somes {A} (l1 l2 : list (option A)) : subl l1 l2 -> subl (somes l1) (somes l2).
Proof. induction 1 as [|[x|] l1 l2 _ IH|[x|] l1 l2 _ IH]; cbn; try constructor; assumption. Qed.

Lemma subl_sorted {A} (R : A -> A -> Prop) l1 l2 : subl l1 l2 -> StronglySorted R l2 -> StronglySorted R l1.
Proof.
  induction 1 as [| x l1 l2 Hs IH | x l1 l2 Hs IH]; intros H; [constructor| |].
  - inversion H; subst. auto.
  - inversion H as [|? ? Hs2 Hf]; subst. constructor; [auto|].
    rewrite Forall_forall in *. intros y Hy. apply Hf. eapply subl_in; eassumption.
Qed.

Lemma sorted_app (a b : list nat) : StronglySorted lt a -> StronglySorted lt b ->
  (forall x y, In x a -> In y b -> x < y)%nat -> StronglySorted lt (a ++ b).
Proof.
  induction a as [|x a IH]; intros Ha Hb H; cbn; [exact Hb|].
  inversion Ha as [|? ? Ha' Hf]; subst. constructor.
  - apply IH; auto. intros; apply H; cbn; auto.
  - rewrite Forall_forall in *. intros y Hy. apply in_app_or in Hy as [Hy|Hy]; [auto|apply H; cbn; auto].
Qed.

Lemma somes_app {A} (a b : list (option A)) : somes (a ++ b) = somes a ++ somes b.
Proof. induction a as [|[x|] a IH]; cbn; rewrite ?IH; reflexivity. Qed.

Lemma in_somes {A} (l : list (option A)) x : In x (somes l) <-> In (Some x) l.
Proof.
  induction l as [|[y|] l IH]; cbn; [tauto| |].
  - rewrite IH. split; intros [H|H]; auto; [left; congruence|left; congruence].
  - rewrite IH. split; [auto|intros [H|H]; [discriminate|exact H]].
Qed.

Lemma serials_app k a b : serials_of k (a ++ b) = serials_of k a ++ serials_of k b.
Proof. unfold serials_of. rewrite filter_app, map_app. reflexivity. Qed.

Lemma in_serials k ts m : In m (serials_of k ts) <-> In (k, m) ts.
Proof.
  unfold serials_of. rewrite in_map_iff. split.
  - intros [[a b] [<- H]]. apply filter_In in H as [H E]. cbn in E. apply Nat.eqb_eq in E. cbn. subst. exact H.
  - intros H. exists (k, m). split; [reflexivity|]. apply filter_In. split; [exact H|]. cbn. apply Nat.eqb_refl.
Qed.

Lemma serials_other k ts : (forall t, In t ts -> fst t <> k) -> serials_of k ts = [].
Proof.
  unfold serials_of. induction ts as [|t ts IH]; intros H; [reflexivity|]. cbn.
  destruct (Nat.eqb_spec (fst t) k) as [E|E]; [exfalso; eapply H; [left; reflexivity|exact E]|].
  apply IH. intros; apply H; right; assumption.
Qed.

Lemma serials_same k ts : (forall t, In t ts -> fst t = k) -> serials_of k ts = map snd ts.
Proof.
  unfold serials_of. induction ts as [|t ts IH]; intros H; [reflexivity|]. cbn.
  rewrite (proj2 (Nat.eqb_eq _ _) (H t (or_introl eq_refl))). cbn. f_equal. apply IH. intros; apply H; right; assumption.
Qed.

Lemma sorted_serials_nodup ts : (forall k, StronglySorted lt (serials_of k ts)) -> NoDup ts.
Proof.
  induction ts as [|[k m] ts IH]; intros H; constructor.
  - intros Hin. specialize (H k). unfold serials_of in H. cbn in H. rewrite Nat.eqb_refl in H. cbn in H.
    inversion H as [|? ? _ Hf]; subst. rewrite Forall_forall in Hf.
    specialize (Hf m). assert (m < m)%nat; [|lia]. apply Hf. apply (in_serials k ts m). exact Hin.
  - apply IH. intros k'. specialize (H k'). unfold serials_of in *. cbn in H.
    destruct (Nat.eqb k k'); [cbn in H; inversion H; assumption|exact H].
Qed.

(** The list [l] of session [k] against the file's tags [ft] and the next serial [nx].
    [so_unsaved] carries the proof: an unsaved item's serial exceeds every serial of session [k]
    already in the file, so a save appends in order and without duplicates. *)
Record SessOK (nx : nat) (ft : list tag) (k : nat) (l : list titem) : Prop := {
  so_own : forall t, In t (tags_of l) -> fst t = k /\ (snd t < nx)%nat;
  so_sorted : StronglySorted lt (map snd (tags_of l));
  so_unsaved : forall t a, In (Some t, (a, true)) l -> forall m, In (k, m) ft -> (m < snd t)%nat;
  so_saved : forall t a, In (Some t, (a, false)) l -> In t ft }.

Record INV (w : tworld) : Prop := {
  inv_bound : forall t, In t (file_tags w) -> (snd t < tnext w)%nat;
  inv_sorted : forall k, StronglySorted lt (serials_of k (file_tags w));
  inv_sess : forall k l, nth_error (tsess w) k = Some l -> SessOK (tnext w) (file_tags w) k l }.

Lemma subl_tags l' l : subl l' l -> subl (tags_of l') (tags_of l).
Proof. intros H. apply subl_somes, subl_map, H. Qed.

Lemma tags_of_app a b : tags_of (a ++ b) = tags_of a ++ tags_of b.
Proof. unfold tags_of. rewrite map_app, somes_app. reflexivity. Qed.

Lemma in_tags_of l t : In t (tags_of l) <-> exists a, In (Some t, a) l.
Proof.
  unfold tags_of. rewrite in_somes, in_map_iff. split.
  - intros [[o a] [E H]]. cbn in E. subst. eexists; eassumption.
  - intros [a H]. exists (Some t, a). split; [reflexivity|exact H].
Qed.

Lemma somes_map_none {A B} (l : list A) : somes (map (fun _ => @None B) l) = [].
Proof. induction l; [reflexivity|assumption]. Qed.

Lemma sess_ok_weaken nx ft nx' ft' k l :
  SessOK nx ft k l -> (nx <= nx')%nat ->
  (forall m, In (k, m) ft' -> In (k, m) ft) ->
  (forall t, In t ft -> In t ft') -> SessOK nx' ft' k l.
Proof.
  intros [H1 H2 H3 H4] Hn Hf Hg. constructor.
  - intros t Ht. destruct (H1 t Ht). split; [assumption|lia].
  - exact H2.
  - intros t a Hin m Hm. eapply H3; eauto.
  - intros t a Hin. apply Hg. eapply H4; eauto.
Qed.

Lemma sess_ok_subl nx ft k l l' : SessOK nx ft k l -> subl l' l -> SessOK nx ft k l'.
Proof.
  intros [H1 H2 H3 H4] Hs. constructor.
  - intros t Ht. apply H1. eapply subl_in; [apply subl_tags, Hs|exact Ht].
  - eapply subl_sorted; [apply subl_map, subl_tags, Hs|exact H2].
  - intros t a Hin. eapply H3. eapply subl_in; eassumption.
  - intros t a Hin. eapply H4. eapply subl_in; eassumption.
Qed.

Lemma sess_ok_nil nx ft k : SessOK nx ft k [].
Proof. constructor; [intros t [] | constructor | intros t a [] | intros t a []]. Qed.

Lemma inv_same_file w nx ss b : INV w -> (tnext w <= nx)%nat ->
  (forall k l, nth_error ss k = Some l -> SessOK nx (file_tags w) k l) ->
  INV {| tfile := tfile w; tsess := ss; tts := b; tnext := nx |}.
Proof.
  intros [Hb Hs _] Hn Hk. constructor; [|exact Hs|exact Hk].
  intros t Ht. apply Hb in Ht. cbn [tnext]. lia.
Qed.

Lemma inv_local w sid g : INV w ->
  (forall l, SessOK (tnext w) (file_tags w) sid l -> SessOK (tnext w) (file_tags w) sid (g l)) ->
  INV {| tfile := tfile w; tsess := update_nth sid g (tsess w); tts := tts w; tnext := tnext w |}.
Proof.
  intros Hi Hg. apply inv_same_file; [exact Hi | apply Nat.le_refl |]. apply nth_error_update_nth_inv.
  - intros l E. apply Hg, (inv_sess w Hi), E.
  - intros k l _. apply (inv_sess w Hi).
Qed.

Lemma in_unsaved l x : In x (t_unsaved l) <-> In x l /\ snd (snd x) = true.
Proof. unfold t_unsaved. apply filter_In. Qed.

Lemma in_clear l t a b : In (Some t, (a, b)) (t_clear l) -> b = false /\ exists b', In (Some t, (a, b')) l.
Proof.
  unfold t_clear. rewrite in_map_iff. intros [[o [a' b']] [E H]]. cbn in E. inversion E; subst.
  split; [reflexivity|]. eexists; eassumption.
Qed.

Lemma tags_clear l : tags_of (t_clear l) = tags_of l.
Proof. unfold tags_of, t_clear. rewrite map_map. reflexivity. Qed.

Theorem tstep_inv w o : INV w -> INV (tstep w o).
Proof.
  intros Hi. pose proof Hi as [Hb Hs Hk].
  destruct o as [sid c now|sid|sid|sid| |sid off|sid|]; cbn [tstep].
  - (* Add: the new tag (sid, tnext w) is above everything recorded or saved so far *)
    destruct (trim c) as [|c0 c'] eqn:Et; [exact Hi|].
    apply inv_same_file; [exact Hi | apply Nat.le_succ_diag_r |]. apply nth_error_update_nth_inv.
    + intros l0 E0. destruct (Hk sid l0 E0) as [H1 H2 H3 H4]. constructor.
      * intros t Ht. rewrite tags_of_app in Ht. apply in_app_or in Ht as [Ht|Ht].
        -- destruct (H1 t Ht). split; [assumption|lia].
        -- cbn in Ht. destruct Ht as [<-|[]]. cbn. split; [reflexivity|lia].
      * rewrite tags_of_app, map_app. apply sorted_app; [exact H2|repeat constructor|].
        intros x y Hx Hy. cbn in Hy. destruct Hy as [<-|[]]. apply in_map_iff in Hx as [t [<- Ht]].
        apply (H1 t Ht).
      * intros t a Hin m Hm. apply in_app_or in Hin as [Hin|Hin]; [eapply H3; eauto|].
        cbn in Hin. destruct Hin as [Hin|[]]. inversion Hin; subst. cbn. apply (Hb (sid, m) Hm).
      * intros t a Hin. apply in_app_or in Hin as [Hin|Hin]; [eapply H4; eauto|].
        cbn in Hin. destruct Hin as [Hin|[]]. inversion Hin.
    + intros k l _ Hn. eapply sess_ok_weaken; [exact (Hk k l Hn) | lia | auto | auto].
  - (* Save: the file gains the tags of the session's unsaved items *)
    destruct (nth_error (tsess w) sid) as [l0|] eqn:E0; [|exact Hi].
    destruct (Hk sid l0 E0) as [H1 H2 H3 H4].
    match goal with |- INV ?W => assert (Hft : file_tags W = file_tags w ++ tags_of (t_unsaved l0)) end.
    { unfold file_tags at 1, tags_of. cbn [tfile]. rewrite map_app, somes_app, map_map. reflexivity. }
    assert (Hsub : subl (tags_of (t_unsaved l0)) (tags_of l0)).
    { apply subl_tags, subl_filter. }
    assert (Hown : forall t, In t (tags_of (t_unsaved l0)) -> fst t = sid /\ (snd t < tnext w)%nat).
    { intros t Ht. apply (H1 t). eapply subl_in; eassumption. }
    assert (Hun : forall t, In t (tags_of (t_unsaved l0)) -> exists a, In (Some t, (a, true)) l0).
    { intros t Ht. apply in_tags_of in Ht as [[a b] Hin]. apply in_unsaved in Hin as [Hin Hb']. cbn in Hb'. subst b. eauto. }
    constructor; cbn [tnext tsess]; rewrite Hft.
    + intros t Ht. apply in_app_or in Ht as [Ht|Ht]; [auto|apply (Hown t Ht)].
    + intros k. rewrite serials_app. destruct (Nat.eq_dec k sid) as [->|Hne].
      * apply sorted_app; [apply Hs| |].
        -- rewrite serials_same by (intros t Ht; apply (Hown t Ht)).
           eapply subl_sorted; [apply subl_map, Hsub|exact H2].
        -- intros x y Hx Hy. apply in_serials in Hx, Hy. destruct (Hun _ Hy) as [a Ha].
           apply (H3 _ _ Ha x Hx).
      * rewrite (serials_other k (tags_of (t_unsaved l0))), app_nil_r; [apply Hs|].
        intros t Ht. destruct (Hown t Ht). congruence.
    + apply nth_error_update_nth_inv.
      * intros l E. rewrite E0 in E. injection E as <-. constructor.
        -- rewrite tags_clear. exact H1.
        -- rewrite tags_clear. exact H2.
        -- intros t a Hin. apply in_clear in Hin as [Hf _]. discriminate.
        -- intros t a Hin. apply in_clear in Hin as [_ [b' Hin]]. apply in_or_app. destruct b'.
           ++ right. apply in_tags_of. exists (a, true). apply in_unsaved. split; [exact Hin|reflexivity].
           ++ left. eapply H4; eauto.
      * intros k l Hne Hn. eapply sess_ok_weaken; [exact (Hk k l Hn) | apply Nat.le_refl | |].
        -- intros m Hm. apply in_app_or in Hm as [Hm|Hm]; [exact Hm|].
           destruct (Hown _ Hm) as [E _]. destruct (Hne E).
        -- intros t Ht. apply in_or_app. left. exact Ht.
  - (* SaveFail *) exact Hi.
  - (* Write *) exact Hi.
  - (* NewSession: the imported items carry no tags *)
    apply inv_same_file; [exact Hi | apply Nat.le_refl |].
    intros k l Hn. destruct (Nat.lt_ge_cases k (length (tsess w))) as [Hlt|Hge].
    + rewrite nth_error_app1 in Hn by exact Hlt. exact (Hk k l Hn).
    + rewrite nth_error_app2 in Hn by exact Hge. destruct (k - length (tsess w))%nat as [|j]; [|destruct j; discriminate].
      injection Hn as <-.
      assert (Hnone : tags_of (map (fun x : option tag * (str * option Z) => (@None tag, (fst (snd x), snd (snd x), false))) (tfile w)) = []).
      { unfold tags_of. rewrite map_map. apply somes_map_none. }
      constructor; rewrite ?Hnone.
      * intros t [].
      * constructor.
      * intros t a Hin. apply in_map_iff in Hin as [x [E _]]. inversion E.
      * intros t a Hin. apply in_map_iff in Hin as [x [E _]]. inversion E.
  - (* Delete *)
    apply inv_local; [exact Hi|]. intros l Hl. rewrite tdelete_eq.
    exact (sess_ok_subl _ _ _ _ _ Hl (delete_at_subl off l)).
  - (* Clear *)
    apply inv_local; [exact Hi|]. intros l _. apply sess_ok_nil.
  - (* ToggleTs *) apply inv_same_file; [exact Hi | apply Nat.le_refl | exact Hk].
Qed.

Lemma erase_unsaved l : map snd (t_unsaved l) = a_unsaved (map snd l).
Proof. symmetry. exact (filter_map_comm (fun x => snd x) snd l). Qed.

(** Tags are ghosts. *)
Theorem tstep_erase w o : is_write o = false -> terase (tstep w o) = astep (terase w) o.
Proof.
  intros Hnw. destruct o as [sid c now|sid|sid|sid| |sid off|sid|]; try discriminate Hnw; cbn [tstep astep].
  - destruct (trim c) as [|c0 c'] eqn:Et; [reflexivity|].
    unfold terase, with_sess; cbn [tfile tsess tts afile asess ats]. f_equal.
    apply map_update_nth. intros l. rewrite map_app. reflexivity.
  - unfold terase at 2; cbn [asess]. rewrite nth_error_map.
    destruct (nth_error (tsess w) sid) as [l|]; cbn [option_map]; [|reflexivity].
    unfold terase; cbn [tfile tsess tts afile asess ats]. f_equal.
    + rewrite map_app. f_equal. rewrite <- erase_unsaved, !map_map. reflexivity.
    + apply map_update_nth. intros l'. unfold t_clear, a_clear_flags. rewrite !map_map. reflexivity.
  - reflexivity.
  - unfold terase, with_sess; cbn [tfile tsess tts afile asess ats]. f_equal.
    rewrite map_app. f_equal. cbn [map]. f_equal. rewrite !map_map. reflexivity.
  - unfold terase, with_sess; cbn [tfile tsess tts afile asess ats]. f_equal.
    apply map_update_nth. intros l. rewrite tdelete_eq, adelete_eq. apply map_delete_at.
  - unfold terase, with_sess; cbn [tfile tsess tts afile asess ats]. f_equal.
    apply map_update_nth. intros l. reflexivity.
  - reflexivity.
Qed.

Definition trun (w : tworld) (ops : list op) : tworld := fold_left tstep ops w.
Definition tinit (f : list (str * option Z)) : tworld :=
  {| tfile := map (fun x => (None, x)) f; tsess := []; tts := false; tnext := 0 |}.

Lemma tinit_inv f : INV (tinit f).
Proof.
  assert (E : file_tags (tinit f) = []).
  { unfold file_tags, tinit; cbn [tfile]. rewrite map_map. apply somes_map_none. }
  constructor; rewrite ?E.
  - intros t [].
  - intros k. constructor.
  - intros k l Hn. destruct k; discriminate.
Qed.

Lemma trun_inv ops : forall w, INV w -> INV (trun w ops).
Proof. induction ops as [|o ops IH]; intros w H; [exact H|]. apply IH, tstep_inv, H. Qed.

Definition no_write (ops : list op) : Prop := Forall (fun o => is_write o = false) ops.

Lemma trun_erase ops : forall w, no_write ops -> terase (trun w ops) = arun (terase w) ops.
Proof.
  induction ops as [|o ops IH]; intros w Hn; [reflexivity|]. unfold trun, arun in *. cbn [fold_left].
  inversion Hn; subst. rewrite IH by assumption. rewrite tstep_erase by assumption. reflexivity.
Qed.

(** [tstep] ignores [Write]: for the machine of Hist/Spec.v this speaks of [no_write] sequences
    ([trun_erase]). *)
Theorem saved_exactly_once_in_order f ops :
  let w := trun (tinit f) ops in
  NoDup (file_tags w) /\
  (forall k, StronglySorted lt (serials_of k (file_tags w))) /\
  (forall k l t a, nth_error (tsess w) k = Some l -> In (Some t, (a, false)) l -> In t (file_tags w)) /\
  (forall k l t a, nth_error (tsess w) k = Some l -> In (Some t, (a, true)) l -> ~ In t (file_tags w)).
Proof.
  cbv zeta. pose proof (trun_inv ops _ (tinit_inv f)) as [Hb Hs Hk].
  split; [apply sorted_serials_nodup, Hs|]. split; [exact Hs|]. split.
  - intros k l t a Hn Hin. eapply so_saved; [apply Hk; exact Hn|exact Hin].
  - intros k l [k' m] a Hn Hin Hf. destruct (Hk k l Hn) as [H1 _ H3 _].
    assert (k' = k). { apply (H1 (k', m)). apply in_tags_of. eauto. } subst k'.
    specialize (H3 _ _ Hin m Hf). cbn in H3. lia.
Qed.
