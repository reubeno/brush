(** C20 — the model refines the abstract specification (Hist/Spec.v), for every op sequence. *)
From BV Require Import Base.Prelude Base.Decimal Hist.Model Hist.Spec.

Definition view_item (it : item) : aitem := (cmd it, ts it, dirty it).
Definition view (h : hist) : list aitem := map view_item (items h).

Definition ts_of_comment (comment : str) : option Z :=
  match parse_i64 (trim comment) with Some z => from_timestamp z | None => None end.

(** what [import] makes of a list of lines, as a plain recursion *)
Fixpoint iview (g : list str) (nts : option Z) : list aitem :=
  match g with
  | [] => []
  | l :: g' => match strip_hash l with
               | Some comment => iview g' (ts_of_comment comment)
               | None => (l, nts, false) :: iview g' None
               end
  end.

(** the timestamp of a trailing `#` line that no command line has consumed yet *)
Fixpoint ipend (g : list str) (nts : option Z) : option Z :=
  match g with
  | [] => nts
  | l :: g' => match strip_hash l with
               | Some comment => ipend g' (ts_of_comment comment)
               | None => ipend g' None
               end
  end.

Definition abs (w : world) : aworld :=
  {| afile := map fst (iview (file w) None); asess := map view (sessions w); ats := tsflag w |}.

(** The hypotheses of the refinement.  A stamp outside chrono's range would be written by a save
    but dropped by the next import; a command starting with `#` would be re-imported as a comment
    line; a file ending in an unconsumed `#<stamp>` line would lend that stamp to the first
    command appended after it ([WF], first part). *)
Definition ts_ok (t : Z) : Prop := from_timestamp t = Some t.
Definition no_hash (c : str) : Prop := strip_hash c = None.
Definition item_ok (it : item) : Prop :=
  no_hash (cmd it) /\ match ts it with Some t => ts_ok t | None => True end.
Definition WF (w : world) : Prop :=
  ipend (file w) None = None /\ Forall (fun h => Forall item_ok (items h)) (sessions w).
Definition op_ok (o : op) : Prop :=
  match o with Add _ c now => no_hash (trim c) /\ ts_ok now | _ => True end.

(** What a save leaves of an item when re-imported. *)
Definition saved_view (tsf : bool) (it : item) : aitem := (cmd it, if tsf then ts it else None, false).

Lemma map_update_nth {A B} (f : A -> B) (g : A -> A) (g' : B -> B) n : forall l,
  (forall x, f (g x) = g' (f x)) -> map f (update_nth n g l) = update_nth n g' (map f l).
Proof.
  induction n as [|n IH]; intros [|x l] H; cbn; try reflexivity.
  - rewrite H. reflexivity.
  - rewrite IH by exact H. reflexivity.
Qed.

Lemma Forall_update_nth {A} (P : A -> Prop) (g : A -> A) n : forall l,
  Forall P l -> (forall x, P x -> P (g x)) -> Forall P (update_nth n g l).
Proof.
  induction n as [|n IH]; intros [|x l] H Hg; cbn; try exact H; inversion H; subst; constructor; auto.
Qed.

Lemma update_nth_id {A} n : forall l : list A, update_nth n (fun x => x) l = l.
Proof. induction n as [|n IH]; intros [|x l]; cbn; try reflexivity. rewrite IH. reflexivity. Qed.

Lemma update_nth_twice {A} (g : A -> A) n : forall l, (forall x, g (g x) = g x) ->
  update_nth n g (update_nth n g l) = update_nth n g l.
Proof.
  induction n as [|n IH]; intros [|x l] H; cbn; try reflexivity.
  - rewrite H. reflexivity.
  - rewrite IH by exact H. reflexivity.
Qed.

Lemma nth_error_update_nth_eq {A} (g : A -> A) n : forall l, nth_error (update_nth n g l) n = option_map g (nth_error l n).
Proof. induction n as [|n IH]; intros [|x l]; cbn; try reflexivity. apply IH. Qed.

Lemma nth_error_update_nth_ne {A} (g : A -> A) n k : k <> n -> forall l, nth_error (update_nth n g l) k = nth_error l k.
Proof.
  revert k. induction n as [|n IH]; intros [|k] Hne [|x l]; cbn; try reflexivity; try congruence.
  apply IH. congruence.
Qed.

Lemma nth_error_update_nth_inv {A} (Q : nat -> A -> Prop) (g : A -> A) n l :
  (forall x, nth_error l n = Some x -> Q n (g x)) ->
  (forall k x, k <> n -> nth_error l k = Some x -> Q k x) ->
  forall k x, nth_error (update_nth n g l) k = Some x -> Q k x.
Proof.
  intros Hn Hne k x H. destruct (Nat.eq_dec k n) as [->|Hk].
  - rewrite nth_error_update_nth_eq in H. destruct (nth_error l n) as [y|]; [|discriminate].
    injection H as <-. apply Hn. reflexivity.
  - rewrite nth_error_update_nth_ne in H by exact Hk. apply Hne; assumption.
Qed.

Lemma filter_map_comm {A B} (f : B -> bool) (g : A -> B) l :
  filter f (map g l) = map g (filter (fun x => f (g x)) l).
Proof. induction l as [|x l IH]; [reflexivity|]. cbn [map filter]. destruct (f (g x)); cbn [map]; rewrite IH; reflexivity. Qed.

Lemma map_remove_nth {A B} (f : A -> B) n : forall l, map f (remove_nth n l) = remove_nth n (map f l).
Proof. induction n as [|n IH]; intros [|x l]; cbn; try reflexivity. rewrite IH. reflexivity. Qed.

Inductive subl {A} : list A -> list A -> Prop :=
| subl_nil : subl [] []
| subl_skip x l1 l2 : subl l1 l2 -> subl l1 (x :: l2)
| subl_keep x l1 l2 : subl l1 l2 -> subl (x :: l1) (x :: l2).

Lemma subl_refl {A} (l : list A) : subl l l.
Proof. induction l; constructor; assumption. Qed.

Lemma subl_in {A} (l1 l2 : list A) x : subl l1 l2 -> In x l1 -> In x l2.
Proof. induction 1; cbn; intuition. Qed.

Lemma Forall_subl {A} (P : A -> Prop) (l1 l2 : list A) : subl l1 l2 -> Forall P l2 -> Forall P l1.
Proof.
  induction 1 as [|x l1 l2 _ IH|x l1 l2 _ IH]; intros H; [exact H| |].
  - inversion H; auto.
  - inversion H; subst. constructor; auto.
Qed.

Lemma subl_remove_nth {A} n : forall l : list A, subl (remove_nth n l) l.
Proof.
  induction n as [|n IH]; intros [|x l]; cbn; try (constructor; fail).
  - apply subl_skip, subl_refl.
  - apply subl_keep, IH.
Qed.

(** The offset rule of the builtin; the three deletions of the development are this function. *)
Definition delete_at {A} (off : Z) (l : list A) : list A :=
  if off =? 0 then l
  else if 0 <? off then remove_nth (Z.to_nat (off - 1)) l
  else let idx := Z.of_nat (length l) + off in
       if idx <? 0 then l else remove_nth (Z.to_nat idx) l.

Lemma map_delete_at {A B} (f : A -> B) off l : map f (delete_at off l) = delete_at off (map f l).
Proof.
  unfold delete_at. rewrite map_length.
  destruct (off =? 0); [reflexivity|]. destruct (0 <? off); [apply map_remove_nth|].
  destruct (_ <? 0); [reflexivity|]. apply map_remove_nth.
Qed.

Lemma delete_at_subl {A} off (l : list A) : subl (delete_at off l) l.
Proof.
  unfold delete_at. destruct (off =? 0); [apply subl_refl|]. destruct (0 <? off); [apply subl_remove_nth|].
  destruct (_ <? 0); [apply subl_refl|apply subl_remove_nth].
Qed.

Lemma adelete_eq l off : adelete l off = delete_at off l.
Proof. reflexivity. Qed.

Lemma items_hdelete h off : items (hdelete h off) = delete_at off (items h).
Proof.
  unfold hdelete, delete_at. destruct (off =? 0); [reflexivity|]. destruct (0 <? off); [reflexivity|].
  destruct (_ <? 0); reflexivity.
Qed.

Lemma ts_ok_i64 t : ts_ok t -> in_i64 t = true.
Proof.
  unfold ts_ok, from_timestamp, in_i64. destruct (_ && _) eqn:E; [|discriminate]. intros _.
  apply andb_prop in E as [E1 E2]. apply Z.leb_le in E1, E2.
  unfold chrono_min, chrono_max in *. apply andb_true_intro; split; apply Z.leb_le; unfold i64_min, i64_max; lia.
Qed.

Lemma from_timestamp_ok z t : from_timestamp z = Some t -> ts_ok t.
Proof. unfold ts_ok, from_timestamp. destruct (_ && _) eqn:E; [|discriminate]. intros [= <-]. rewrite E. reflexivity. Qed.

Lemma import_fold g : forall h nts,
  let r := fold_left import_line g (h, nts) in
  view (fst r) = view h ++ iview g nts /\ snd r = ipend g nts /\
  (Forall item_ok (items h) -> match nts with Some t => ts_ok t | None => True end -> Forall item_ok (items (fst r))).
Proof.
  induction g as [|l g IH]; intros h nts; cbn [fold_left iview ipend].
  - cbn. rewrite app_nil_r. auto.
  - assert (Estep : import_line (h, nts) l =
      match strip_hash l with Some comment => (h, ts_of_comment comment) | None => (hadd h l nts false, None) end).
    { unfold import_line, ts_of_comment. destruct (strip_hash l); [destruct (parse_i64 _); reflexivity|reflexivity]. }
    cbv zeta. rewrite Estep. destruct (strip_hash l) as [comment|] eqn:El.
    + destruct (IH h (ts_of_comment comment)) as (H1 & H2 & H3).
      split; [exact H1|]. split; [exact H2|]. intros Hh _. apply H3; [exact Hh|].
      unfold ts_of_comment. destruct (parse_i64 (trim comment)) as [z|]; [|exact I].
      destruct (from_timestamp z) eqn:Ez; [|exact I]. eapply from_timestamp_ok; eassumption.
    + destruct (IH (hadd h l nts false) None) as (H1 & H2 & H3).
      split.
      * rewrite H1. unfold view, hadd. cbn [items]. rewrite map_app. cbn. rewrite <- app_assoc. reflexivity.
      * split; [exact H2|].
        intros Hh Hn. apply H3; [|exact I]. unfold hadd; cbn [items]. apply Forall_app; split; [exact Hh|].
        constructor; [|constructor]. split; assumption.
Qed.

Lemma iview_app f : forall g nts, iview (f ++ g) nts = iview f nts ++ iview g (ipend f nts).
Proof.
  induction f as [|l f IH]; intros g nts; cbn [app iview ipend]; [reflexivity|].
  destruct (strip_hash l); [apply IH|]. rewrite IH. reflexivity.
Qed.

Lemma ipend_app f : forall g nts, ipend (f ++ g) nts = ipend g (ipend f nts).
Proof.
  induction f as [|l f IH]; intros g nts; cbn [app ipend]; [reflexivity|].
  destruct (strip_hash l); apply IH.
Qed.

Lemma strip_hash_cons c : strip_hash (HASH :: c) = Some c.
Proof. reflexivity. Qed.

Lemma ts_line_roundtrip t : ts_ok t -> ts_of_comment (show_Z t) = Some t.
Proof.
  intros Ht. unfold ts_of_comment. rewrite trim_no_ws by apply show_Z_no_ws.
  rewrite parse_show_Z by (apply ts_ok_i64; exact Ht). exact Ht.
Qed.

Lemma iview_flush tsf its : Forall item_ok its ->
  iview (flush_lines tsf its) None = map (saved_view tsf) (filter dirty its) /\
  ipend (flush_lines tsf its) None = None.
Proof.
  induction 1 as [|it its [Hc Ht] _ [IH1 IH2]]; [split; reflexivity|].
  unfold flush_lines in *. cbn [flat_map filter].
  destruct (dirty it); [|split; assumption]. cbn [map]. unfold saved_view at 1.
  destruct (ts it) as [t|]; [destruct tsf|]; cbn [app iview ipend].
  - rewrite strip_hash_cons, (ts_line_roundtrip t Ht), Hc, IH1. split; [reflexivity|exact IH2].
  - rewrite Hc, IH1. split; [reflexivity|exact IH2].
  - rewrite Hc, IH1. split; [destruct tsf; reflexivity|exact IH2].
Qed.

Lemma iview_clean g : forall nts, map (fun x => (fst (fst x), snd (fst x), false)) (iview g nts) = iview g nts.
Proof.
  induction g as [|l g IH]; intros nts; cbn [iview]; [reflexivity|].
  destruct (strip_hash l); [apply IH|]. cbn [map fst snd]. rewrite IH. reflexivity.
Qed.

Lemma view_delete h off : view (hdelete h off) = adelete (view h) off.
Proof. unfold view. rewrite items_hdelete, adelete_eq. apply map_delete_at. Qed.

Lemma view_flush h : view (hflush h) = a_clear_flags (view h).
Proof. unfold view, hflush, a_clear_flags, mark_saved. cbn [items]. rewrite !map_map. reflexivity. Qed.

Lemma unsaved_view its : a_unsaved (map view_item its) = map view_item (filter dirty its).
Proof. exact (filter_map_comm (fun x => snd x) view_item its). Qed.

Lemma asess_nth w sid : nth_error (asess (abs w)) sid = option_map view (nth_error (sessions w) sid).
Proof. apply nth_error_map. Qed.

Lemma WF_nth w sid h : WF w -> nth_error (sessions w) sid = Some h -> Forall item_ok (items h).
Proof. intros [_ Hs] En. rewrite Forall_forall in Hs. apply Hs. eapply nth_error_In; exact En. Qed.

(** [item_ok] does not look at the dirty flag: covers [mark_saved] and [mark_dirty] *)
Lemma item_ok_set_dirty b its : Forall item_ok its ->
  Forall item_ok (map (fun it => {| id := id it; cmd := cmd it; ts := ts it; dirty := b |}) its).
Proof. intros H. rewrite Forall_map. exact H. Qed.

Lemma filter_dirty_mark_dirty its : filter dirty (mark_dirty its) = mark_dirty its.
Proof. unfold mark_dirty. induction its as [|it its IH]; [reflexivity|]. cbn [map filter dirty]. rewrite IH. reflexivity. Qed.

Lemma step_local w sid g g' :
  (forall h, view (g h) = g' (view h)) ->
  (forall h, Forall item_ok (items h) -> Forall item_ok (items (g h))) ->
  WF w ->
  abs {| file := file w; sessions := update_nth sid g (sessions w); tsflag := tsflag w |}
    = with_sess (abs w) (update_nth sid g' (asess (abs w)))
  /\ WF {| file := file w; sessions := update_nth sid g (sessions w); tsflag := tsflag w |}.
Proof.
  intros Hv Hg [Hp Hs]. split.
  - unfold abs, with_sess; cbn [file sessions tsflag afile asess ats]. f_equal. apply map_update_nth, Hv.
  - split; [exact Hp|]. apply Forall_update_nth; assumption.
Qed.

Theorem step_refines w o : WF w -> op_ok o -> abs (step w o) = astep (abs w) o /\ WF (step w o).
Proof.
  intros Hw Ho. pose proof Hw as [Hp Hs].
  destruct o as [sid c now|sid|sid|sid| |sid off|sid|]; cbn [step astep].
  - (* Add *)
    destruct Ho as [Hnh Hts].
    destruct (step_local w sid (fun h => add_to_history h c now)
                (fun l => match trim c with [] => l | c' => l ++ [(c', Some now, true)] end)) as [Ha Hw'];
      [| |exact Hw|].
    + intros h. unfold add_to_history. destruct (trim c); [reflexivity|].
      unfold view, hadd; cbn [items]. apply map_app.
    + intros h Hh. unfold add_to_history. destruct (trim c) eqn:Et; [exact Hh|].
      unfold hadd; cbn [items]. apply Forall_app; split; [exact Hh|]. constructor; [|constructor].
      split; cbn [cmd ts]; [exact Hnh|exact Hts].
    + split; [|exact Hw']. rewrite Ha. destruct (trim c); [|reflexivity].
      rewrite update_nth_id. reflexivity.
  - (* Save *)
    rewrite asess_nth.
    destruct (nth_error (sessions w) sid) as [h|] eqn:En; cbn [option_map]; [|split; [reflexivity|exact Hw]].
    pose proof (WF_nth w sid h Hw En) as Hh.
    destruct (iview_flush (tsflag w) (items h) Hh) as [Hv Hpe].
    split.
    + unfold abs; cbn [file sessions tsflag afile asess ats]. f_equal.
      * rewrite iview_app, Hp, Hv, map_app. f_equal.
        unfold view. rewrite unsaved_view, !map_map. reflexivity.
      * apply map_update_nth, view_flush.
    + split; cbn [file sessions].
      * rewrite ipend_app, Hp. exact Hpe.
      * apply Forall_update_nth; [exact Hs|]. intros x Hx. apply item_ok_set_dirty, Hx.
  - (* SaveFail *) split; [reflexivity|exact Hw].
  - (* Write *)
    rewrite asess_nth.
    destruct (nth_error (sessions w) sid) as [h|] eqn:En; cbn [option_map]; [|split; [reflexivity|exact Hw]].
    pose proof (item_ok_set_dirty true _ (WF_nth w sid h Hw En)) as Hd.
    destruct (iview_flush (tsflag w) (mark_dirty (items h)) Hd) as [Hv Hpe].
    split.
    + unfold abs; cbn [file sessions tsflag afile asess ats]. f_equal.
      unfold write_lines. rewrite Hv, filter_dirty_mark_dirty. unfold view, mark_dirty. rewrite !map_map. reflexivity.
    + split; [exact Hpe|exact Hs].
  - (* NewSession *)
    destruct (import_fold (file w) empty_hist None) as (H1 & H2 & H3). cbv zeta in *.
    split.
    + unfold abs, with_sess; cbn [file sessions tsflag afile asess ats]. f_equal.
      rewrite map_app. f_equal. cbn [map]. f_equal. unfold import. rewrite H1, map_map. symmetry. apply iview_clean.
    + split; [exact Hp|]. cbn [sessions]. apply Forall_app; split; [exact Hs|]. constructor; [|constructor].
      apply H3; [constructor|exact I].
  - (* Delete *)
    apply step_local; [intros h; apply view_delete | | exact Hw].
    intros h. rewrite items_hdelete. apply Forall_subl, delete_at_subl.
  - (* Clear *)
    apply step_local; [reflexivity | constructor | exact Hw].
  - (* ToggleTs *) split; [reflexivity|exact Hw].
Qed.

Theorem run_refines ops : forall w, WF w -> Forall op_ok ops ->
  abs (run w ops) = arun (abs w) ops /\ WF (run w ops).
Proof.
  induction ops as [|o ops IH]; intros w Hw Ho; [split; [reflexivity|exact Hw]|].
  inversion Ho as [|? ? Ho1 Ho2]; subst. destruct (step_refines w o Hw Ho1) as [Ha Hw'].
  unfold run, arun in *. cbn [fold_left]. rewrite <- Ha. apply IH; assumption.
Qed.

Lemma flush_saved tsf its : flush_lines tsf (mark_saved its) = [].
Proof. unfold flush_lines, mark_saved. induction its as [|it its IH]; [reflexivity|]. cbn. exact IH. Qed.

Lemma mark_saved_idem its : mark_saved (mark_saved its) = mark_saved its.
Proof. unfold mark_saved. rewrite map_map. reflexivity. Qed.

Theorem save_idempotent w sid : step (step w (Save sid)) (Save sid) = step w (Save sid).
Proof.
  cbn [step]. destruct (nth_error (sessions w) sid) as [h|] eqn:En.
  - cbn [step sessions file tsflag]. rewrite nth_error_update_nth_eq, En. cbn [option_map hflush items].
    rewrite flush_saved, app_nil_r. f_equal. apply update_nth_twice.
    intros x. unfold hflush; cbn [items next_id]. rewrite mark_saved_idem. reflexivity.
  - cbn [step]. rewrite En. reflexivity.
Qed.

Theorem save_appends_exactly_unsaved w sid h : WF w -> nth_error (sessions w) sid = Some h ->
  afile (abs (step w (Save sid))) =
  afile (abs w) ++ map (fun it => (cmd it, if tsflag w then ts it else None)) (filter dirty (items h)).
Proof.
  intros Hw En. destruct (step_refines w (Save sid) Hw I) as [-> _].
  cbn [astep]. rewrite asess_nth, En. cbn [option_map afile].
  f_equal. unfold view. rewrite unsaved_view, map_map. reflexivity.
Qed.

Theorem reload_as_saved w : WF w ->
  map (fun x => fst x) (view (import (file w))) = afile (abs w).
Proof.
  intros _. destruct (import_fold (file w) empty_hist None) as (H1 & _). cbv zeta in H1.
  unfold import. rewrite H1. reflexivity.
Qed.

Theorem file_append_only w o : is_write o = false -> exists more, file (step w o) = file w ++ more.
Proof.
  intros Hw. destruct o; try discriminate Hw; cbn [step]; try (exists []; rewrite app_nil_r; reflexivity).
  destruct (nth_error (sessions w) sid); [eexists; reflexivity|exists []; rewrite app_nil_r; reflexivity].
Qed.

(** `history -w` leaves nothing of the old contents *)
Theorem write_replaces_file w sid h : WF w -> nth_error (sessions w) sid = Some h ->
  afile (abs (step w (Write sid))) = map (fun it => (cmd it, if tsflag w then ts it else None)) (items h).
Proof.
  intros Hw En. destruct (step_refines w (Write sid) Hw I) as [-> _].
  cbn [astep]. rewrite asess_nth, En. cbn [option_map afile].
  unfold view. rewrite map_map. reflexivity.
Qed.

Definition ex_ops : list op :=
  [NewSession; Add 0 [32;108;115;32]%N 1700000000; ToggleTs; Add 0 [120]%N 1700000001; Save 0; NewSession; Save 0; Delete 1 1; Save 1].
Example ex_wf : WF (init_world [[111;108;100]%N; HASH :: [49;50]%N; [99]%N]) /\ Forall op_ok ex_ops.
Proof. split; [split; [reflexivity|constructor]|repeat constructor]. Qed.
Example ex_result :
  file (run (init_world [[111;108;100]%N; HASH :: [49;50]%N; [99]%N]) ex_ops) =
  [[111;108;100]; HASH :: [49;50]; [99]; HASH :: show_Z 1700000000; [108;115]; HASH :: show_Z 1700000001; [120]]%N.
Proof. vm_compute. reflexivity. Qed.
