(** C02 — the exit-code enum of results.rs (regenerated table) round-trips through u8. *)
From Coq Require Import Arith.
From BV Require Import gen.C02ExitCodes.

Lemma of_u8_arm (b n : nat) (c rest : exit_code) :
  to_u8 c = n -> to_u8 rest = b -> to_u8 (if Nat.eqb b n then c else rest) = b.
Proof. intros Hc Hr. destruct (Nat.eqb_spec b n) as [->|_]; assumption. Qed.

Lemma to_of_u8 b : to_u8 (of_u8 b) = b.
Proof. unfold of_u8. repeat (apply of_u8_arm; [reflexivity|]). reflexivity. Qed.

Theorem exitcode_roundtrip b : b < 256 -> to_u8 (of_u8 b) = b.
Proof. intros _. apply to_of_u8. Qed.

(** the named codes the interpreter model relies on *)
Lemma named_codes :
  to_u8 Success = 0 /\ to_u8 GeneralError = 1 /\ to_u8 InvalidUsage = 2 /\
  to_u8 err_unimplemented = 99 /\ to_u8 err_command_not_found = 127.
Proof. repeat split; reflexivity. Qed.
