(** C03 — statements about errexit / pipefail read off the model and the specification. *)
From BV Require Import Base.Prelude Shell.Syntax Shell.ModelExec Shell.SpecExec.
Close Scope Z_scope.
Open Scope nat_scope.

Lemma spec_exit_not_exempt stk s s' :
  errexit_check stk s = SExit s' ->
  exempt stk = false /\ errexit (opt (b_sh s)) = true /\ slast s <> 0 /\ s' = s.
Proof.
  unfold errexit_check, ok. destruct (errexit (opt (b_sh s))); cbn; [|discriminate].
  destruct (Nat.eqb (slast s) 0) eqn:E; cbn; [discriminate|].
  destruct (exempt stk); cbn; [discriminate|]. intros H. inversion H. subst s'.
  apply Nat.eqb_neq in E. repeat split; auto.
Qed.

(** [Pipeline::execute] calls [apply_errexit] only where the threaded flag is off *)
Lemma model_no_exit_when_suppressed s r : apply_errexit s r = r \/ (errexit (opt s) = true /\ is_success r = false /\ is_normal r = true).
Proof.
  unfold apply_errexit. destruct (errexit (opt s)); cbn; [|left; reflexivity].
  destruct (is_success r); cbn; [left; reflexivity|]. destruct (is_normal r); [right; auto|left; reflexivity].
Qed.

(** pipefail: the fold of [wait_for_pipeline_processes_and_update_status] computes
    "the rightmost non-zero status, else the last one" *)
Lemma find_snoc {A} (p : A -> bool) l a :
  find p (l ++ [a]) = match find p l with Some x => Some x | None => if p a then Some a else None end.
Proof. induction l as [|x l IH]; cbn; [reflexivity|]. destruct (p x); [reflexivity|exact IH]. Qed.

Lemma rightmost_failure_spec rs : forall acc,
  fold_left (fun acc r => if is_success r then acc else Some (fst r)) rs acc =
  match find (fun n => negb (Nat.eqb n 0)) (rev (map fst rs)) with Some n => Some n | None => acc end.
Proof.
  induction rs as [|r rs IH]; intros acc; cbn [fold_left map rev]; [reflexivity|].
  rewrite IH, find_snoc. destruct (find (fun n => negb (Nat.eqb n 0)) (rev (map fst rs))); [reflexivity|].
  unfold is_success. destruct (Nat.eqb (fst r) 0); reflexivity.
Qed.

Lemma last_map_fst (rs : list result) : fst (List.last rs success) = List.last (map fst rs) 0.
Proof.
  induction rs as [|r rs IH]; [reflexivity|]. destruct rs as [|r' rs]; [reflexivity|]. exact IH.
Qed.

Theorem pipefail_status pf rs : fst (pipe_result pf rs) = pipe_status pf (map fst rs).
Proof.
  unfold pipe_result, pipe_status, rightmost_failure. destruct pf.
  - rewrite rightmost_failure_spec. destruct (find (fun n => negb (Nat.eqb n 0)) (rev (map fst rs))); [reflexivity|apply last_map_fst].
  - apply last_map_fst.
Qed.
