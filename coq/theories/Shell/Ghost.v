(** C02 — the ghost marks of the model only grow. *)
From BV Require Import Base.Prelude Shell.Syntax Shell.ModelExec.
Close Scope Z_scope.
Open Scope nat_scope.

Definition ext (g g' : list gk) : Prop := exists d, g' = d ++ g.
Lemma ext_refl g : ext g g. Proof. exists []; reflexivity. Qed.
Lemma ext_cons g g' k : ext g g' -> ext g (k :: g').
Proof. intros [d ->]. exists (k :: d). reflexivity. Qed.
Lemma ext_nil g : ext g [] -> g = [].
Proof. intros [d H]. symmetry in H. apply app_eq_nil in H. tauto. Qed.

Definition mono {A} (w : world) (o : outcome A) : Prop :=
  forall g0, ext g0 (ghost w) ->
  match o with Out _ w' => ext g0 (ghost w') | OutOfFuel g => ext g0 g end.

Lemma mono_bind {A B} w (o : outcome A) (k : A -> world -> outcome B) :
  mono w o -> (forall a w1, mono w1 (k a w1)) -> mono w (bind o k).
Proof.
  intros Ho Hk g0 Hg. specialize (Ho g0 Hg). destruct o as [a w1|g]; cbn; [|exact Ho].
  apply Hk. exact Ho.
Qed.

Lemma mono_out {A} w (a : A) w' : ext (ghost w) (ghost w') -> mono w (Out a w').
Proof. intros [d Hd] g0 [d0 Hg]. cbn. rewrite Hd, Hg. exists (d ++ d0). apply app_assoc. Qed.

Lemma mono_same {A} w (a : A) w' : ghost w' = ghost w -> mono w (Out a w').
Proof. intros H. apply mono_out. rewrite H. apply ext_refl. Qed.

Lemma mono_shift {A} w w0 (o : outcome A) : ghost w0 = ghost w -> mono w0 o -> mono w o.
Proof. intros H Ho g0 Hg. apply Ho. rewrite H. exact Hg. Qed.

Lemma mono_finish r w : mono w (finish r w).
Proof. apply mono_same; reflexivity. Qed.

Lemma mono_if {A} w (b : bool) (x y : outcome A) : mono w x -> mono w y -> mono w (if b then x else y).
Proof. destruct b; auto. Qed.

Create HintDb mono discriminated.
#[export] Hint Resolve mono_bind mono_same mono_finish mono_if : mono.

Section Mono.
  Variable rec : cmd -> bool -> world -> outcome result.
  Variable recw : bool -> clist -> clist -> bool -> result -> world -> outcome result.
  Hypothesis Hrec : forall c sup w, mono w (rec c sup w).
  Hypothesis Hrecw : forall u c b sup res w, mono w (recw u c b sup res w).

  Lemma mono_leaf l sup w : mono w (exec_leaf rec l sup w).
  Proof.
    destruct l as [k|b| |n|n|a|a|o b|f|a]; cbn [exec_leaf]; try destruct a; auto with mono.
    destruct (lookup f (funs (sh w))); auto with mono.
    apply mono_bind; [apply (mono_shift w (upd_sh enter_fn w)); auto with mono|].
    intros r w1. destruct (snd r); auto with mono.
  Qed.

  Lemma mono_stages cs sup : forall w, mono w (run_stages rec cs sup w).
  Proof.
    induction cs as [|c cs IH]; intros w; cbn [run_stages]; auto with mono.
    apply mono_bind.
    - destruct cs; [apply Hrec|]. apply (mono_shift w (mute w)); auto with mono.
    - intros r w1. apply mono_bind; [apply (mono_shift w1 (restore w w1)); auto with mono|]. auto with mono.
  Qed.
  Hint Resolve mono_stages : mono.

  Lemma mono_pipeline p sup w : mono w (exec_pipeline rec p sup w).
  Proof.
    destruct p as [bang stages]. unfold exec_pipeline. apply mono_bind.
    - destruct stages as [|c [|c' cs]]; auto with mono.
    - intros rs w1. apply mono_same; reflexivity.
  Qed.
  Hint Resolve mono_pipeline : mono.

  Lemma mono_andor_rest rest sup : forall res w, mono w (andor_rest rec rest sup res w).
  Proof. induction rest as [|[is_and p] rest IH]; intros res w; cbn [andor_rest]; auto with mono. Qed.
  Hint Resolve mono_andor_rest : mono.

  Lemma mono_andor a sup w : mono w (exec_andor rec a sup w).
  Proof. destruct a as [first rest]. unfold exec_andor. auto with mono. Qed.
  Hint Resolve mono_andor : mono.

  Lemma mono_clist_items l sup : forall res w, mono w (clist_items rec l sup res w).
  Proof.
    induction l as [|a l IH]; intros res w; cbn [clist_items]; auto with mono.
    apply mono_bind; [auto with mono|]. intros r w1. destruct (negb (is_normal r)); [auto with mono|].
    apply (mono_shift w1 (set_last (fst r) w1)); auto with mono.
  Qed.
  Lemma mono_clist l sup w : mono w (exec_clist rec l sup w).
  Proof. apply mono_clist_items. Qed.
  Hint Resolve mono_clist : mono.

  Lemma mono_loop_tail r w (K : outcome result) :
    mono w K ->
    mono w (if is_return_or_exit r then finish r w
            else if is_break r || is_continue (dec_result r) then finish (dec_result r) w else K).
  Proof. intros HK. apply mono_if; [apply mono_finish|]. apply mono_if; [apply mono_finish|exact HK]. Qed.

  Lemma mono_for n b sup : forall res w, mono w (for_iter rec n b sup res w).
  Proof. induction n as [|n IH]; intros res w; cbn [for_iter]; auto with mono. Qed.

  Lemma mono_case arms sup : forall force res w, mono w (case_iter rec arms force sup res w).
  Proof.
    induction arms as [|[[m pa] body] arms IH]; intros force res w; cbn [case_iter]; auto with mono.
    destruct (force || m); [|apply IH]. apply mono_bind; [destruct body; auto with mono|].
    intros r w1. destruct (negb (is_normal r)); [|destruct pa]; auto with mono.
  Qed.

  Lemma mono_elses elses sup : forall w, mono w (elses_iter rec elses sup w).
  Proof. induction elses as [|[[ec|] body] elses IH]; intros w; cbn [elses_iter]; auto with mono. Qed.
  Hint Resolve mono_elses : mono.

  Lemma mono_cmd c sup w : mono w (exec_cmd rec recw c sup w).
  Proof.
    destruct c; cbn [exec_cmd].
    - apply mono_leaf.
    - apply mono_same; reflexivity.
    - apply mono_clist.
    - apply mono_bind; [apply mono_clist|]. intros; apply mono_same; reflexivity.
    - apply mono_bind; [apply mono_clist|]. intros rc w1. auto with mono.
    - apply Hrecw.
    - apply mono_bind; [apply mono_for|]. intros; apply mono_finish.
    - apply mono_bind; [apply mono_case|]. intros; apply mono_finish.
    - apply mono_same; reflexivity.
    - apply Hrec.
  Qed.

  (** [while_step] after its condition; the only place where a mark is added *)
  Lemma mono_while_cont u c b sup res rc w1 :
    mono w1 (let w2 := set_last (fst rc) w1 in
             if negb (is_normal rc) then
               finish (dec_result rc)
                      (mark GCond ((is_break rc || is_continue rc) && Bool.eqb (is_success rc) u
                                   && negb (Nat.eqb (fst res) (fst rc))) w2)
             else if Bool.eqb (is_success rc) u then finish res w2
             else bind (exec_clist rec b sup w2) (fun r w3 =>
                    if is_return_or_exit r then finish r w3
                    else if is_break r || is_continue (dec_result r) then finish (dec_result r) w3
                    else recw u c b sup (dec_result r) w3)).
  Proof.
    cbn zeta. destruct (negb (is_normal rc)).
    - apply mono_out. cbn [ghost mark set_last upd_sh]. destruct (_ && negb (Nat.eqb (fst res) (fst rc))); [apply ext_cons|]; apply ext_refl.
    - destruct (Bool.eqb (is_success rc) u); [apply mono_same; reflexivity|].
      apply (mono_shift w1 (set_last (fst rc) w1)); auto with mono.
  Qed.

  Lemma mono_while_step u c b sup res w : mono w (while_step rec recw u c b sup res w).
  Proof. unfold while_step. apply mono_bind; [apply mono_clist|]. intros rc w1. apply mono_while_cont. Qed.

  Lemma mono_program cs : forall res w, mono w (program_items rec cs res w).
  Proof.
    induction cs as [|c cs IH]; intros res w; cbn [program_items]; auto with mono.
    apply mono_bind; [auto with mono|]. intros r w1. destruct (negb (is_normal r)); [auto with mono|].
    apply (mono_shift w1 (set_last (fst r) w1)); auto with mono.
  Qed.
End Mono.
#[export] Hint Resolve mono_clist mono_for mono_case mono_elses : mono.

Lemma mono_exec fuel : (forall c sup w, mono w (exec fuel c sup w)) /\
                       (forall u c b sup res w, mono w (while_loop fuel u c b sup res w)).
Proof.
  induction fuel as [|f [IH1 IH2]]; split; intros; cbn [exec while_loop].
  - intros g0 Hg. exact Hg.
  - intros g0 Hg. exact Hg.
  - apply mono_cmd; assumption.
  - apply mono_while_step; assumption.
Qed.

Lemma mono_nil {A} w (o : outcome A) : mono w o ->
  match o with Out _ w' => ghost w' = [] -> ghost w = [] | OutOfFuel g => g = [] -> ghost w = [] end.
Proof.
  intros H. specialize (H (ghost w) (ext_refl _)).
  destruct o; intros E; rewrite E in H; apply ext_nil in H; exact H.
Qed.
