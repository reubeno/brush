(** C02/C03 — the simulation theorem: on well-scoped programs, and as long as the run passes no
    recorded divergence point (ghost mark), brush's interpreter (ModelExec) and the bash-style
    specification (SpecExec) compute the same thing, for every fuel: [BreakLoop k] corresponds to
    [breaking = k+1], [ContinueLoop k] to [continuing = k+1], [$?] and the output agree, and the
    threaded [suppress_errexit] flag equals "some enclosing position is exempt". *)
From BV Require Import Base.Prelude Shell.Syntax Shell.ModelExec Shell.SpecExec Shell.Scope Shell.Ghost.
From BV Require Import gen.C02ExitCodes.
Close Scope Z_scope.
Open Scope nat_scope.

Definition emb (w : world) (b c l : nat) : bstate := mkB (sh w) (out w) (quiet w) b c l.

(** Bodies are well scoped on their own: a call resets the loop context.  The table grows during
    the run, so this travels with the simulation as part of its post-condition. *)
Definition funs_ok (s : shell) : Prop :=
  forall f body, lookup f (funs s) = Some body -> scope_cmd [] body = [].

(** a non-local exit of the shell: only [$?] and the output survive it *)
Definition exits (n : status) (w : world) (o : sres) : Prop :=
  exists s, o = SExit s /\ slast s = n /\ b_out s = out w.

(** what the specification must have returned when the model returned [r] in world [w]; [l] is
    bash's loop_level.  The second conjuncts of the break/continue cases are the scope invariant
    of the model's result, carried along to where a loop consumes it. *)
Definition expect (ctx : list frame) (l : nat) (r : result) (w : world) (o : sres) : Prop :=
  let w' := set_last (fst r) w in
  match snd r with
  | Normal => o = SNorm (emb w' 0 0 l)
  | BreakLoop k => o = SNorm (emb w' (S k) 0 l) /\ k < length ctx
  | ContinueLoop k => o = SNorm (emb w' 0 (S k) l) /\ nth_error ctx k = Some FLoop
  | ReturnFn => exists b c l', o = SRet (emb w' b c l')
  | ExitShell => exits (fst r) w o
  end.

(** pipeline level and above: [$?] already holds the result's code *)
Definition expect_s (ctx : list frame) (l : nat) (r : result) (w : world) (o : sres) : Prop :=
  expect ctx l r w o /\ last (sh w) = fst r.

(** commands after which bash itself consults errexit: all but brace group, if, loops, case *)
Definition checks (c : cmd) : bool := negb (quiet_compound c).

(** the errexit exit that brush has not taken yet when a command comes back *)
Definition pending (stk : list pos) (r : result) (w : world) : bool :=
  is_normal r && errexit (opt (sh w)) && negb (is_success r) && negb (exempt stk).
(** command level: brush applies errexit one level up (in [Pipeline::execute]), bash in the
    command itself if it [checks] *)
Definition expect_c (c : cmd) (stk : list pos) (ctx : list frame) (l : nat) (r : result) (w : world) (o : sres) : Prop :=
  if checks c && pending stk r w then exits (fst r) w o else expect ctx l r w o.

(** [post] is owed only for a run that ends without ghost marks; out of fuel with none so far,
    the specification is out of fuel too *)
Definition sim {A} (post : A -> world -> sres -> Prop) (m : outcome A) (o : sres) : Prop :=
  match m with
  | Out a w' => ghost w' = [] -> post a w' o /\ funs_ok (sh w')
  | OutOfFuel g => g = [] -> o = SFuel
  end.

Lemma sim_out {A} (P : A -> world -> sres -> Prop) a w o :
  P a w o -> funs_ok (sh w) -> sim P (Out a w) o.
Proof. intros HP Hf _. split; assumption. Qed.

(** Ghost-freeness is stated on the final world only; [mono] carries it back to the intermediate one. *)
Lemma sim_bind {A B} (m1 : outcome A) (k : A -> world -> outcome B)
      (P : A -> world -> sres -> Prop) (o1 : sres) (Q : B -> world -> sres -> Prop) (o : sres) :
  sim P m1 o1 ->
  (forall a w1, mono w1 (k a w1)) ->
  (o1 = SFuel -> o = SFuel) ->
  (forall a w1, P a w1 o1 -> funs_ok (sh w1) -> sim Q (k a w1) o) ->
  sim Q (bind m1 k) o.
Proof.
  intros H1 Hk Hf Hc. destruct m1 as [a w1|g]; cbn [bind].
  - pose proof (mono_nil _ _ (Hk a w1)) as Hn.
    destruct (k a w1) as [b w2|g] eqn:E; cbn [sim] in *; intros Hg; specialize (Hn Hg);
      destruct (H1 Hn) as [HP Hfo]; specialize (Hc a w1 HP Hfo); rewrite E in Hc; cbn [sim] in Hc; auto.
  - cbn [sim] in *. auto.
Qed.

Lemma sim_sbind {A B} (m1 : outcome A) (k : A -> world -> outcome B)
      (P : A -> world -> sres -> Prop) (o1 : sres) (Q : B -> world -> sres -> Prop) (ks : bstate -> sres) :
  sim P m1 o1 ->
  (forall a w1, mono w1 (k a w1)) ->
  (forall a w1, P a w1 o1 -> funs_ok (sh w1) -> sim Q (k a w1) (sbind o1 ks)) ->
  sim Q (bind m1 k) (sbind o1 ks).
Proof. intros H1 Hk Hc. eapply sim_bind; [exact H1|exact Hk|intros ->; reflexivity|exact Hc]. Qed.

Lemma set_last_id n w : last (sh w) = n -> set_last n w = w.
Proof. destruct w as [[la op fu ct fd] ou qu gh]. cbn. intros ->. reflexivity. Qed.
Lemma set_last_set n m w : set_last n (set_last m w) = set_last n w.
Proof. reflexivity. Qed.
Lemma last_set_last n w : last (sh (set_last n w)) = n.
Proof. reflexivity. Qed.

Lemma exempt_cons p stk : exempt (p :: stk) = is_exempt_position p || exempt stk.
Proof. reflexivity. Qed.

Lemma emb_last_id w b c l : emb (set_last (last (sh w)) w) b c l = emb w b c l.
Proof. rewrite set_last_id; reflexivity. Qed.

Lemma sbind_norm o : sbind o (fun s => SNorm s) = o.
Proof. destruct o; reflexivity. Qed.

Lemma bind_assoc {A B C} (m : outcome A) (k : A -> world -> outcome B) (f : B -> world -> outcome C) :
  bind (bind m k) f = bind m (fun a w => bind (k a w) f).
Proof. destruct m; reflexivity. Qed.

Lemma bind_if {A B} (c : bool) (x y : outcome A) (f : A -> world -> outcome B) :
  bind (if c then x else y) f = if c then bind x f else bind y f.
Proof. destruct c; reflexivity. Qed.

Lemma low_byte_wrap z : low_byte z = wrap_status z.
Proof. unfold low_byte, wrap_status. change 255%Z with (Z.ones 8). rewrite Z.land_ones by discriminate. reflexivity. Qed.

Lemma exempt_bang (bang : bool) (stk : list pos) : exempt (if bang then PBang :: stk else stk) = exempt stk || bang.
Proof. destruct bang; cbn; [rewrite orb_true_r|rewrite orb_false_r]; reflexivity. Qed.

Lemma pipe_result_single pf r : pipe_result pf [r] = r.
Proof. destruct r as [c f]. unfold pipe_result, rightmost_failure, is_success. cbn. destruct pf; [|reflexivity]. destruct (Nat.eqb c 0); reflexivity. Qed.

Lemma slast_emb w b c l : slast (emb w b c l) = last (sh w). Proof. reflexivity. Qed.
Lemma busy_emb0 w l : busy (emb w 0 0 l) = false. Proof. reflexivity. Qed.
Lemma busy_emb_b w k c l : busy (emb w (S k) c l) = true. Proof. reflexivity. Qed.
Lemma busy_emb_c w k l : busy (emb w 0 (S k) l) = true. Proof. reflexivity. Qed.

Lemma errexit_check_ok stk s : slast s = 0 -> errexit_check stk s = SNorm s.
Proof. intros H. unfold errexit_check, ok. rewrite H. cbn [Nat.eqb negb]. rewrite andb_false_r. reflexivity. Qed.

Lemma sim_checked c stk ctx lv n w :
  checks c = true -> funs_ok (sh w) ->
  sim (expect_c c stk ctx lv) (Out (n, Normal) w) (errexit_check stk (emb (set_last n w) 0 0 lv)).
Proof.
  intros Hc Hf. apply sim_out; [|exact Hf].
  unfold expect_c, pending, errexit_check, ok, slast, is_success. rewrite Hc. cbn.
  destruct (errexit (opt (sh w))); cbn; [|reflexivity].
  destruct (Nat.eqb n 0); cbn; [reflexivity|].
  destruct (exempt stk); cbn; [reflexivity|].
  eexists; split; [reflexivity|]. split; reflexivity.
Qed.

Lemma expect_c_nonnormal c stk ctx l r w o :
  is_normal r = false -> expect_c c stk ctx l r w o = expect ctx l r w o.
Proof. intros H. unfold expect_c, pending. rewrite H. cbn [andb]. rewrite andb_false_r. reflexivity. Qed.

Lemma apply_errexit_nonnormal s r : is_normal r = false -> apply_errexit s r = r.
Proof. intros H. unfold apply_errexit. rewrite H, andb_false_r. reflexivity. Qed.

Lemma apply_errexit_pending stk n w :
  exempt stk = false ->
  apply_errexit (sh (set_last n w)) (n, Normal) = if pending stk (n, Normal) w then (n, ExitShell) else (n, Normal).
Proof.
  intros Hx. unfold apply_errexit, pending, is_success. rewrite Hx. cbn.
  destruct (errexit (opt (sh w))), (Nat.eqb n 0); reflexivity.
Qed.

Lemma expect_normal ctx l r w :
  snd r = Normal -> expect ctx l r w (SNorm (emb (set_last (fst r) w) 0 0 l)).
Proof. unfold expect. intros ->. reflexivity. Qed.

Lemma expect_abort ctx l r w o :
  is_return_or_exit r = true -> expect ctx l r w o ->
  forall ctx' l' k, expect ctx' l' r w (sbind o k).
Proof.
  destruct r as [code fl]. unfold expect, is_return_or_exit. cbn [fst snd].
  destruct fl; try discriminate; intros _ H ctx' l' k.
  - destruct H as (b & c & l0 & ->). do 3 eexists. reflexivity.
  - destruct H as (s & -> & H). exists s. split; [reflexivity|exact H].
Qed.
Arguments expect_abort {ctx l r w o}.

Lemma expect_closed l r w o :
  expect [] l r w o ->
  match snd r with
  | Normal => o = SNorm (emb (set_last (fst r) w) 0 0 l)
  | ReturnFn => exists b c l', o = SRet (emb (set_last (fst r) w) b c l')
  | ExitShell => exits (fst r) w o
  | _ => False
  end.
Proof.
  unfold expect. destruct (snd r) as [|k|k| |]; try exact (fun H => H); intros [_ H].
  - exact (Nat.nlt_0_r _ H).
  - destruct k; discriminate H.
Qed.

Lemma reap_closed l r w1 o1 w lv :
  expect [] l r w1 o1 ->
  reap (emb w 0 0 lv) o1 = SNorm (emb (set_last (fst r) (restore w w1)) 0 0 lv).
Proof.
  intros H. apply expect_closed in H. destruct (snd r); try contradiction.
  - rewrite H. reflexivity.
  - destruct H as (b & c & l' & ->). reflexivity.
  - destruct H as (s & -> & H1 & H2). cbn [reap]. rewrite H1, H2. reflexivity.
Qed.
Arguments reap_closed {l r w1 o1}.

Lemma expect_s_stop ctx lv r w o1 (k : bstate -> sres) :
  expect_s ctx lv r w o1 -> is_normal r = false ->
  (forall s, busy s = true -> k s = SNorm s) ->
  expect_s ctx lv r w (sbind o1 k).
Proof.
  intros [He Hs] Hn Hk. split; [|exact Hs].
  destruct (is_return_or_exit r) eqn:Ea; [exact (expect_abort Ea He _ _ _)|].
  destruct r as [code fl]. unfold expect in *. cbn [snd fst] in *.
  destruct fl; try discriminate; destruct He as [-> Hb]; cbn [sbind]; rewrite Hk by reflexivity;
    (split; [reflexivity|exact Hb]).
Qed.

Lemma expect_s_normal ctx lv r w o1 :
  expect_s ctx lv r w o1 -> is_normal r = true ->
  o1 = SNorm (emb w 0 0 lv) /\ ok (emb w 0 0 lv) = is_success r.
Proof.
  intros [He Hs] Hn. destruct r as [code fl]. unfold expect in He. cbn [snd fst] in *.
  destruct fl; try discriminate Hn. rewrite He, set_last_id by exact Hs.
  split; [reflexivity|]. unfold ok, is_success. rewrite slast_emb, Hs. reflexivity.
Qed.
Arguments expect_s_normal {ctx lv r w o1}.

Lemma expect_s_back ctx lv r w o1 :
  expect_s ctx lv r w o1 -> is_normal r = true -> expect_s ctx lv r w (SNorm (emb w 0 0 lv)).
Proof. intros HP En. rewrite <- (proj1 (expect_s_normal HP En)). exact HP. Qed.
Arguments expect_s_back {ctx lv r w o1}.

Lemma sim_quiet c stk ctx lv m o :
  checks c = false -> sim (expect_s ctx lv) m o -> sim (expect_c c stk ctx lv) m o.
Proof.
  intros Hc Hs. destruct m as [r w|g]; cbn [sim] in *; [|exact Hs].
  intros Hg. destruct (Hs Hg) as [[He _] Hf]. split; [|exact Hf]. unfold expect_c. rewrite Hc. exact He.
Qed.

Lemma scope_break ctx k : scope_leaf ctx (LBreak (S k)) = [] -> k < length ctx /\ k < 127.
Proof.
  cbn [scope_leaf]. destruct (Nat.ltb k (length ctx)) eqn:E; [|discriminate].
  destruct (Nat.ltb k 127) eqn:E7; [|discriminate]. split; apply Nat.ltb_lt; assumption.
Qed.

Lemma scope_continue ctx k : scope_leaf ctx (LContinue (S k)) = [] -> k < 127 /\ nth_error ctx k = Some FLoop.
Proof.
  cbn [scope_leaf]. destruct (Nat.ltb k 127) eqn:E7; [|discriminate].
  destruct (nth_error ctx k) as [[|]|]; try discriminate. split; [apply Nat.ltb_lt, E7|reflexivity].
Qed.

(** bash clamps the count to [loop_level]; in scope it never reaches it *)
Lemma do_break_emb isb k w lv :
  S k <= lv ->
  do_break isb (S k) (emb w 0 0 lv) = emb (set_last 0 w) (if isb then S k else 0) (if isb then 0 else S k) lv.
Proof.
  intros H. destruct lv as [|lv']; [inversion H|]. unfold do_break. cbn [loop_level emb].
  rewrite (Nat.min_l (S k)) by exact H. destruct isb; reflexivity.
Qed.

Lemma sim_break_continue l stk (ctx : list frame) lv w k isb :
  k < length ctx -> length ctx <= lv ->
  (isb = false -> nth_error ctx k = Some FLoop) -> funs_ok (sh w) ->
  sim (expect_c (Leaf l) stk ctx lv)
      (Out (to_u8 Success, if isb then BreakLoop k else ContinueLoop k) w)
      (errexit_check stk (do_break isb (S k) (emb w 0 0 lv))).
Proof.
  intros Hk Hl Hn Hf.
  rewrite do_break_emb, errexit_check_ok by (reflexivity || lia).
  apply sim_out; [|exact Hf]. rewrite expect_c_nonnormal by (destruct isb; reflexivity).
  destruct isb; (split; [reflexivity|auto]).
Qed.
Arguments sim_break_continue {l stk ctx lv w} k isb.

Section Sim.
  Variable rec : cmd -> bool -> world -> outcome result.
  Variable recw : bool -> clist -> clist -> bool -> result -> world -> outcome result.
  Variable srec : cmd -> list pos -> bstate -> sres.
  Variable srecw : bool -> clist -> clist -> list pos -> status -> bstate -> sres.
  Hypothesis Mrec : forall c sup w, mono w (rec c sup w).
  Hypothesis Mrecw : forall u c b sup res w, mono w (recw u c b sup res w).
  Hypothesis Hrec : forall c stk ctx l w, scope_cmd ctx c = [] -> funs_ok (sh w) -> length ctx <= l ->
    sim (expect_c c stk ctx l) (rec c (exempt stk) w) (srec c stk (emb w 0 0 l)).
  Hypothesis Hrecw : forall u c b stk ctx l res w,
    scope_clist scope_cmd (FCond :: ctx) c = [] -> scope_clist scope_cmd (FLoop :: ctx) b = [] ->
    funs_ok (sh w) -> length ctx <= l -> snd res = Normal ->
    sim (expect_s ctx l) (recw u c b (exempt stk) res w) (srecw u c b stk (fst res) (emb w 0 0 (S l))).

  Lemma spipeline_skip p stk s : busy s = true -> spipeline srec p stk s = SNorm s.
  Proof. intros H. unfold spipeline. rewrite H. reflexivity. Qed.
  Lemma sandor_rest_skip rest stk s : busy s = true -> sandor_rest srec rest stk s = SNorm s.
  Proof.
    intros H. induction rest as [|[a p] rest IH]; cbn [sandor_rest]; [reflexivity|].
    destruct (Bool.eqb a (ok s)); [|exact IH]. rewrite spipeline_skip by exact H. exact IH.
  Qed.
  Lemma sandor_skip a stk s : busy s = true -> sandor srec a stk s = SNorm s.
  Proof. intros H. destruct a as [f r]. unfold sandor. rewrite spipeline_skip by exact H. apply sandor_rest_skip, H. Qed.
  Lemma slist_skip l stk s : busy s = true -> slist srec l stk s = SNorm s.
  Proof. intros H. induction l as [|a l IH]; cbn [slist]; [reflexivity|]. rewrite sandor_skip by exact H. exact IH. Qed.
  Lemma selses_skip elses stk s : busy s = true -> selses srec elses stk s = SNorm s.
  Proof.
    intros H. induction elses as [|[[ec|] body] elses IH]; cbn [selses].
    - unfold snull. rewrite H. reflexivity.
    - rewrite slist_skip by exact H. cbn [sbind fst snd]. destruct (ok s); [apply slist_skip, H|exact IH].
    - apply slist_skip, H.
  Qed.
  Lemma scase_skip arms stk s : busy s = true -> forall fall, scase srec arms fall None stk s = SNorm s.
  Proof.
    intros H. induction arms as [|[[m pa] body] arms IH]; intros fall; cbn [scase]; [reflexivity|].
    destruct (fall || m); [|apply IH].
    destruct body as [b|].
    - rewrite slist_skip by exact H. cbn [sbind fst snd]. destruct pa; [reflexivity|apply IH|apply IH].
    - rewrite H. destruct pa; [reflexivity|apply IH|apply IH].
  Qed.

  Lemma sim_leaf l stk ctx lv w :
    scope_leaf ctx l = [] -> funs_ok (sh w) -> length ctx <= lv ->
    sim (expect_c (Leaf l) stk ctx lv) (exec_leaf rec l (exempt stk) w) (sleaf srec l stk (emb w 0 0 lv)).
  Proof.
    intros Hs Hf Hl. destruct l as [k|b| |n|n|a|a|o b|f|a]; cbn [exec_leaf sleaf].
    - apply sim_checked; [reflexivity|exact Hf].
    - destruct b; apply sim_checked; (reflexivity || exact Hf).
    - apply sim_checked; [reflexivity|exact Hf].
    - destruct n as [|k]; [discriminate|]. destruct (scope_break _ _ Hs) as [Hk H7].
      rewrite (proj2 (Nat.ltb_ge 127 (S k)) H7). apply (sim_break_continue k true); auto; discriminate.
    - destruct n as [|k]; [discriminate|]. destruct (scope_continue _ _ Hs) as [H7 Hn].
      rewrite (proj2 (Nat.ltb_ge 127 (S k)) H7). apply (sim_break_continue k false); auto.
      apply nth_error_Some. rewrite Hn. discriminate.
    - cbn [b_sh emb]. destruct (fdepth (sh w)) eqn:E.
      + apply sim_checked; [reflexivity|exact Hf].
      + apply sim_out; [|exact Hf]. rewrite expect_c_nonnormal by reflexivity. cbn [expect snd fst].
        destruct a as [m|]; [rewrite low_byte_wrap; do 3 eexists; reflexivity|].
        exists 0, 0, lv. rewrite emb_last_id. reflexivity.
    - apply sim_out; [|exact Hf]. rewrite expect_c_nonnormal by reflexivity. cbn [expect snd fst].
      destruct a as [n|]; [rewrite low_byte_wrap|]; eexists; (split; [reflexivity|]); split; reflexivity.
    - apply sim_checked; [reflexivity|exact Hf].
    - (* The body runs at [PBody :: stk], exempt exactly when [stk] is.  So either the body already
         exited under errexit, which is the exit bash takes at the call; or it came back (return
         is caught by the call) and the call is checked like a simple command with the body's
         status; an [exit] passes through. *)
      cbn [b_sh emb]. destruct (lookup f (funs (sh w))) as [body|] eqn:E;
        [|apply sim_checked; [reflexivity|exact Hf]].
      change (b_counters 0 0 0 (b_upd enter_fn (emb w 0 0 lv))) with (emb (upd_sh enter_fn w) 0 0 0).
      eapply sim_bind with (P := expect_c body (PBody :: stk) [] 0).
      + apply (Hrec body (PBody :: stk) [] 0 (upd_sh enter_fn w)); [exact (Hf _ _ E)|exact Hf|apply Nat.le_refl].
      + intros r w1. destruct (snd r); apply mono_same; reflexivity.
      + intros ->. reflexivity.
      + intros [code fl] w1 HP Hf1.
        assert (Hpend : pending (PBody :: stk) (code, Normal) w1 = pending stk (code, Normal) (upd_sh leave_fn w1)) by reflexivity.
        unfold expect_c in HP. destruct (checks body && pending (PBody :: stk) (code, fl) w1) eqn:Ep.
        * (* the body exited under errexit; leaving the function frame changes nothing [pending] looks at *)
          apply andb_prop in Ep as [_ Ep]. destruct fl; try discriminate Ep.
          destruct HP as (s & -> & HP). apply sim_out; [|exact Hf1].
          unfold expect_c. change (checks (Leaf (LCall f))) with true. rewrite <- Hpend, Ep.
          exists s. split; [reflexivity|exact HP].
        * apply expect_closed in HP. cbn [snd fst] in HP. destruct fl; try contradiction; cbn [snd].
          -- rewrite HP. apply sim_checked; [reflexivity|exact Hf1].
          -- destruct HP as (b & c & l' & ->). apply sim_checked; [reflexivity|exact Hf1].
          -- destruct HP as (s & -> & HP). apply sim_out; [|exact Hf1].
             rewrite expect_c_nonnormal by reflexivity. exists s. split; [reflexivity|exact HP].
    - (* the two [let]s of [exec_leaf] compute to these worlds *)
      destruct a as [n|].
      + apply (sim_checked _ _ _ _ (u8 n) (set_last (u8 n) w)); [reflexivity|exact Hf].
      + apply (sim_checked _ _ _ _ 0 (set_last 0 w)); [reflexivity|exact Hf].
  Qed.

  (** what [Pipeline::execute] does with the result of its only command *)
  Definition pipe_code (bang : bool) (r : result) : status :=
    if bang && negb (is_return_or_exit r) then (if is_success r then 1 else 0) else fst r.
  Definition pipe_end (bang sup' : bool) (c : cmd) (r : result) (w1 : world) : outcome result :=
    let w4 := set_last (pipe_code bang r) w1 in
    let r1 := (pipe_code bang r, snd r) in
    Out (if negb sup' && negb (quiet_compound c) then apply_errexit (sh w4) r1 else r1) w4.

  Lemma exec_pipeline1 bang c sup w :
    exec_pipeline rec (bang, [c]) sup w = bind (rec c (sup || bang) w) (pipe_end bang (sup || bang) c).
  Proof.
    unfold exec_pipeline. rewrite bind_assoc.
    destruct (rec c (sup || bang) w) as [r w1|g]; cbn [bind]; [rewrite pipe_result_single|]; reflexivity.
  Qed.

  Lemma pipe_end_nonnormal bang sup' c r w1 :
    is_normal r = false ->
    pipe_end bang sup' c r w1 = Out (pipe_code bang r, snd r) (set_last (pipe_code bang r) w1).
  Proof.
    intros H. unfold pipe_end. destruct (negb sup' && negb (quiet_compound c)); [|reflexivity].
    rewrite apply_errexit_nonnormal by exact H. reflexivity.
  Qed.

  Lemma invert_emb (bang : bool) w code b c l :
    (if bang then b_set_last (if ok (emb (set_last code w) b c l) then 1 else 0) (emb (set_last code w) b c l)
     else emb (set_last code w) b c l)
    = emb (set_last (if bang then if Nat.eqb code 0 then 1 else 0 else code) w) b c l.
  Proof. destruct bang; reflexivity. Qed.

  (** the command-level expectation turns into the pipeline-level one *)
  Lemma pipe_end_ok (bang : bool) c stk ctx lv r w1 o1 :
    let stk' := if bang then PBang :: stk else stk in
    expect_c c stk' ctx lv r w1 o1 -> funs_ok (sh w1) ->
    sim (expect_s ctx lv) (pipe_end bang (exempt stk') c r w1)
        (sbind o1 (fun s1 => SNorm (if bang then b_set_last (if ok s1 then 1 else 0) s1 else s1))).
  Proof.
    intros stk' HP Hf1. destruct r as [code fl]. destruct (is_normal (code, fl)) eqn:En.
    - destruct fl; try discriminate En. unfold pipe_end, pipe_code. cbn [is_return_or_exit snd fst negb].
      rewrite andb_true_r. unfold is_success. cbn [fst].
      apply sim_out; [|exact Hf1].
      unfold expect_c, checks in HP. destruct (exempt stk') eqn:Ex.
      + (* an exempt position: nobody exits *)
        unfold pending in HP. rewrite Ex, !andb_false_r in HP. cbn [andb negb expect snd fst] in *.
        rewrite HP. cbn [sbind]. rewrite invert_emb. split; reflexivity.
      + assert (bang = false) as ->.
        { subst stk'. rewrite exempt_bang in Ex. apply orb_false_elim in Ex. apply Ex. }
        cbn [negb andb]. destruct (quiet_compound c); cbn [negb andb] in *.
        * cbn [expect snd fst] in *. rewrite HP. split; reflexivity.
        * rewrite (apply_errexit_pending stk') by exact Ex.
          destruct (pending stk' (code, Normal) w1); cbn [expect snd fst] in *; [|rewrite HP; split; reflexivity].
          destruct HP as (s & -> & HP). split; [|reflexivity]. exists s. split; [reflexivity|exact HP].
    - rewrite expect_c_nonnormal in HP by exact En. rewrite pipe_end_nonnormal by exact En.
      apply sim_out; [|exact Hf1]. split; [|reflexivity]. cbn [snd fst].
      destruct (is_return_or_exit (code, fl)) eqn:Ea.
      + (* return / exit: neither side inverts *)
        unfold pipe_code. rewrite Ea, andb_false_r. cbn [fst].
        exact (expect_abort Ea HP _ _ _).
      + unfold pipe_code. rewrite Ea, andb_true_r. unfold is_success, expect in *. cbn [fst snd] in *.
        destruct fl; try discriminate; destruct HP as [-> Hk]; cbn [sbind]; rewrite invert_emb;
          (split; [reflexivity|exact Hk]).
  Qed.

  Lemma sim_pipeline p stk ctx lv w :
    scope_pipeline scope_cmd ctx p = [] -> funs_ok (sh w) -> length ctx <= lv ->
    sim (expect_s ctx lv) (exec_pipeline rec p (exempt stk) w) (spipeline srec p stk (emb w 0 0 lv)).
  Proof.
    destruct p as [bang [|c [|c' cs]]]; unfold scope_pipeline; cbn [snd]; try discriminate.
    intros Hs Hf Hl. rewrite exec_pipeline1, <- exempt_bang. unfold spipeline. rewrite busy_emb0.
    eapply sim_sbind.
    - apply Hrec; eassumption.
    - intros r w1. apply mono_same; reflexivity.
    - intros r w1. apply pipe_end_ok.
  Qed.

  (** after one item of a list: the model stops on anything but Normal, bash skips the rest *)
  Lemma item_step ctx lv r w1 o1 (KM : outcome result) (ks : bstate -> sres) :
    expect_s ctx lv r w1 o1 -> funs_ok (sh w1) ->
    (forall s, busy s = true -> ks s = SNorm s) ->
    (is_normal r = true -> sim (expect_s ctx lv) KM (ks (emb w1 0 0 lv))) ->
    sim (expect_s ctx lv) (if negb (is_normal r) then Out r w1 else KM) (sbind o1 ks).
  Proof.
    intros HP Hf Hk HK. destruct (is_normal r) eqn:En; cbn [negb].
    - rewrite (proj1 (expect_s_normal HP En)). apply HK. reflexivity.
    - apply sim_out; [|exact Hf]. apply expect_s_stop; assumption.
  Qed.

  Lemma sim_andor_rest stk ctx lv rest : forall res w o1,
    flat_map (fun x => scope_pipeline scope_cmd ctx (snd x)) rest = [] ->
    expect_s ctx lv res w o1 -> funs_ok (sh w) -> length ctx <= lv ->
    sim (expect_s ctx lv) (andor_rest rec rest (exempt stk) res w) (sbind o1 (sandor_rest srec rest stk)).
  Proof.
    induction rest as [|[is_and p] rest IH]; intros res w o1 Hs He Hf Hl; cbn [andor_rest].
    - apply sim_out; [|exact Hf]. change (sandor_rest srec [] stk) with (fun s : bstate => SNorm s).
      rewrite sbind_norm. exact He.
    - cbn [flat_map snd] in Hs. apply app_eq_nil in Hs as [Hs1 Hs2].
      apply item_step; [exact He|exact Hf|apply sandor_rest_skip|]. intros En.
      cbn [sandor_rest]. rewrite (proj2 (expect_s_normal He En)).
      destruct (Bool.eqb is_and (is_success res)).
      + set (stk' := match rest with [] => stk | _ => PNonFinal :: stk end).
        replace (if match rest with [] => true | _ => false end then exempt stk else true) with (exempt stk')
          by (subst stk'; destruct rest; reflexivity).
        eapply sim_sbind.
        * apply sim_pipeline; eassumption.
        * intros r w1. apply mono_andor_rest; assumption.
        * intros r w1 HP Hf1. apply IH; assumption.
      + apply (IH res w (SNorm (emb w 0 0 lv))); try assumption. exact (expect_s_back He En).
  Qed.

  Lemma sim_andor a stk ctx lv w :
    scope_andor scope_cmd ctx a = [] -> funs_ok (sh w) -> length ctx <= lv ->
    sim (expect_s ctx lv) (exec_andor rec a (exempt stk) w) (sandor srec a stk (emb w 0 0 lv)).
  Proof.
    destruct a as [first rest]. unfold scope_andor, exec_andor, sandor. cbn [fst snd].
    intros Hs Hf Hl. apply app_eq_nil in Hs as [Hs1 Hs2].
    set (stk' := match rest with [] => stk | _ => PNonFinal :: stk end).
    replace (if match rest with [] => false | _ => true end then true else exempt stk) with (exempt stk')
      by (subst stk'; destruct rest; reflexivity).
    eapply sim_sbind.
    - apply sim_pipeline; eassumption.
    - intros r w1. apply mono_andor_rest; assumption.
    - intros r w1 HP Hf1. apply sim_andor_rest; assumption.
  Qed.

  Lemma sim_clist_items stk ctx lv l : forall res w,
    flat_map (scope_andor scope_cmd ctx) l = [] -> funs_ok (sh w) -> length ctx <= lv ->
    (l = [] -> expect_s ctx lv res w (SNorm (emb w 0 0 lv))) ->
    sim (expect_s ctx lv) (clist_items rec l (exempt stk) res w) (slist srec l stk (emb w 0 0 lv)).
  Proof.
    induction l as [|a l IH]; intros res w Hs Hf Hl He; cbn [clist_items slist].
    - apply sim_out; [exact (He eq_refl)|exact Hf].
    - cbn [flat_map] in Hs. apply app_eq_nil in Hs as [Hs1 Hs2].
      eapply sim_sbind.
      + apply sim_andor; eassumption.
      + intros r w1. destruct (negb (is_normal r)); [apply mono_same; reflexivity|].
        eapply mono_shift; [|apply mono_clist_items, Mrec]. reflexivity.
      + intros r w1 HP Hf1. rewrite (set_last_id (fst r) w1) by apply HP.
        apply item_step; [exact HP|exact Hf1|apply slist_skip|]. intros En.
        apply IH; try assumption. intros _. exact (expect_s_back HP En).
  Qed.

  Lemma sim_clist l stk ctx lv w :
    scope_clist scope_cmd ctx l = [] -> funs_ok (sh w) -> length ctx <= lv ->
    sim (expect_s ctx lv) (exec_clist rec l (exempt stk) w) (slist srec l stk (emb w 0 0 lv)).
  Proof.
    destruct l as [|a l]; [discriminate|]. intros Hs Hf Hl. apply sim_clist_items; try assumption. discriminate.
  Qed.

  (** loop body, branch, case item, group: the position does not exempt *)
  Lemma sim_body l stk ctx lv w :
    scope_clist scope_cmd ctx l = [] -> funs_ok (sh w) -> length ctx <= lv ->
    sim (expect_s ctx lv) (exec_clist rec l (exempt stk) w) (slist srec l (PBody :: stk) (emb w 0 0 lv)).
  Proof. exact (sim_clist l (PBody :: stk) ctx lv w). Qed.

  (** a condition: brush runs it with the flag set *)
  Lemma sim_cond l stk ctx lv w :
    scope_clist scope_cmd ctx l = [] -> funs_ok (sh w) -> length ctx <= lv ->
    sim (expect_s ctx lv) (exec_clist rec l true w) (slist srec l (PCond :: stk) (emb w 0 0 lv)).
  Proof. exact (sim_clist l (PCond :: stk) ctx lv w). Qed.

  (** the tail of [sfor] and of [swhile_step] after a body; both unfold to it *)
  Definition spec_after_body (ks : status -> bstate -> sres) (s1 : bstate) : sres :=
    let '(leave, s2) := after_body s1 in
    if leave then SNorm (b_set_last (slast s2) (loop_leave s2)) else ks (slast s2) s2.

  Lemma body_step ctx lv r w1 o1 (KM : outcome result) (ks : status -> bstate -> sres) :
    expect_s (FLoop :: ctx) (S lv) r w1 o1 -> funs_ok (sh w1) ->
    (snd (dec_result r) = Normal -> sim (expect_s ctx lv) KM (ks (fst r) (emb w1 0 0 (S lv)))) ->
    sim (expect_s ctx lv)
        (if is_return_or_exit r then finish r w1
         else if is_break r || is_continue (dec_result r) then finish (dec_result r) w1 else KM)
        (sbind o1 (spec_after_body ks)).
  Proof.
    intros [He Hsy] Hf Hk. destruct (is_return_or_exit r) eqn:Ea.
    { apply sim_out; [|exact Hf]. split; [|reflexivity].
      rewrite (set_last_id (fst r) w1) by exact Hsy. exact (expect_abort Ea He _ _ _). }
    destruct r as [code fl]. unfold expect in He. cbn [fst snd] in *.
    assert (Hid : set_last code w1 = w1) by (apply set_last_id, Hsy).
    unfold is_break, is_continue, dec_result. cbn [fst snd].
    destruct fl as [|k|k| |]; try discriminate Ea; cbn [dec].
    - rewrite He, Hid. cbn [sbind orb]. unfold spec_after_body. cbn. rewrite slast_emb, Hsy. apply Hk. reflexivity.
    - destruct He as [-> Hb]. cbn [sbind orb]. apply sim_out; [|exact Hf]. split; [|reflexivity].
      unfold spec_after_body, expect. cbn [after_body breaking emb]. cbn [length] in Hb.
      destruct k as [|k']; cbn [snd fst dec]; [reflexivity|]. split; [reflexivity|lia].
    - destruct He as [-> Hb]. cbn [sbind]. unfold spec_after_body. cbn [after_body breaking continuing emb].
      destruct k as [|k']; cbn [snd fst dec orb Nat.eqb negb].
      + change (sim (expect_s ctx lv) KM (ks code (emb (set_last code w1) 0 0 (S lv)))).
        rewrite Hid. apply Hk. reflexivity.
      + apply sim_out; [|exact Hf]. split; [|reflexivity]. split; [reflexivity|exact Hb].
  Qed.

  Lemma sim_for stk ctx lv b n : forall res w,
    scope_clist scope_cmd (FLoop :: ctx) b = [] -> funs_ok (sh w) -> length ctx <= lv -> snd res = Normal ->
    sim (expect_s ctx lv) (bind (for_iter rec n b (exempt stk) res w) finish)
        (sfor srec n b stk (fst res) (emb w 0 0 (S lv))).
  Proof.
    induction n as [|n IH]; intros res w Hs Hf Hl Hn; cbn [for_iter sfor].
    - apply sim_out; [|exact Hf]. split; [apply expect_normal, Hn|reflexivity].
    - rewrite bind_assoc. eapply sim_sbind.
      + apply sim_body; [exact Hs|exact Hf|cbn [length]; lia].
      + intros r w1. rewrite !bind_if. auto with mono.
      + intros r w1 HP Hf1. rewrite !bind_if.
        apply (body_step ctx lv r w1 _ _ (fun rv s2 => sfor srec n b stk rv s2)); [exact HP|exact Hf1|].
        intros Hd. apply (IH (dec_result r) w1); assumption.
  Qed.

  Lemma sim_case stk ctx lv arms : forall force res w rv,
    flat_map (fun a : bool * post * option clist => match snd a with Some b => scope_clist scope_cmd ctx b | None => [] end) arms = [] ->
    funs_ok (sh w) -> length ctx <= lv -> snd res = Normal ->
    match rv with Some v => fst res = v | None => fst res = last (sh w) end ->
    sim (expect_s ctx lv) (bind (case_iter rec arms force (exempt stk) res w) finish)
        (scase srec arms force rv stk (emb w 0 0 lv)).
  Proof.
    induction arms as [|[[m pa] body] arms IH]; intros force res w rv Hs Hf Hl Hn Hrv; cbn [case_iter scase].
    - apply sim_out; [|exact Hf]. split; [|reflexivity].
      destruct res as [code fl]. cbn [snd fst] in *. subst fl. unfold expect. cbn [snd fst].
      destruct rv as [v|]; subst; [reflexivity|]. rewrite set_last_set, emb_last_id. reflexivity.
    - cbn [flat_map snd] in Hs. apply app_eq_nil in Hs as [Hs1 Hs2].
      destruct (force || m); [|apply IH; assumption].
      destruct body as [b|].
      + rewrite bind_assoc. eapply sim_sbind with (P := expect_s ctx lv).
        * apply sim_body; assumption.
        * intros r w1. rewrite bind_if. destruct pa; auto with mono.
        * intros r w1 HP Hf1. rewrite bind_if.
          change (bind (Out r w1) finish) with (Out r (set_last (fst r) w1)).
          rewrite (set_last_id (fst r) w1) by apply HP.
          apply item_step; [exact HP|exact Hf1| |].
          -- intros s Hb. destruct pa; [reflexivity| |]; apply scase_skip, Hb.
          -- intros En. assert (Hr : snd r = Normal) by (destruct r as [? []]; try discriminate En; reflexivity).
             destruct pa; [|apply IH; try assumption; symmetry; apply HP ..].
             apply sim_out; [|exact Hf1]. cbn [fst]. rewrite (set_last_id (fst r) w1) by apply HP.
             exact (expect_s_back HP En).
      + rewrite busy_emb0. cbn [bind negb is_normal success snd].
        destruct pa; [|apply IH; try assumption; reflexivity ..].
        apply sim_out; [|exact Hf]. split; reflexivity.
  Qed.

  Lemma sim_elses stk ctx lv elses : forall w,
    flat_map (fun e : option clist * clist => match fst e with Some ec => scope_clist scope_cmd ctx ec | None => [] end
                       ++ scope_clist scope_cmd ctx (snd e)) elses = [] ->
    funs_ok (sh w) -> length ctx <= lv ->
    sim (expect_s ctx lv) (elses_iter rec elses (exempt stk) w) (selses srec elses stk (emb w 0 0 lv)).
  Proof.
    induction elses as [|[[ec|] body] elses IH]; intros w Hs Hf Hl; cbn [elses_iter selses].
    - apply sim_out; [|exact Hf]. split; reflexivity.
    - cbn [flat_map fst snd] in Hs. apply app_eq_nil in Hs as [Hs1 Hs3]. apply app_eq_nil in Hs1 as [Hs1 Hs2].
      eapply sim_sbind with (P := expect_s ctx lv).
      + apply sim_cond; assumption.
      + intros r w1. auto with mono.
      + intros r w1 HP Hf1. apply item_step; [exact HP|exact Hf1| |].
        * intros s Hb. destruct (ok s); [apply slist_skip, Hb|apply selses_skip, Hb].
        * intros En. rewrite (proj2 (expect_s_normal HP En)).
          destruct (is_success r); [apply sim_body|apply IH]; assumption.
    - cbn [flat_map fst snd app] in Hs. apply app_eq_nil in Hs as [Hs1 Hs3]. apply sim_body; assumption.
  Qed.

  Lemma sim_cmd c stk ctx lv w :
    scope_cmd ctx c = [] -> funs_ok (sh w) -> length ctx <= lv ->
    sim (expect_c c stk ctx lv) (exec_cmd rec recw c (exempt stk) w) (scmd srec srecw c stk (emb w 0 0 lv)).
  Proof.
    intros Hs Hf Hl. destruct c as [l|v lim|b|b|c t elses|u c b|ar n b|arms|f body|k c0]; cbn [exec_cmd scmd scope_cmd] in *.
    - apply sim_leaf; assumption.
    - cbn [b_sh emb]. destruct (Nat.ltb (ctr v (sh w)) lim).
      + apply sim_checked; [reflexivity|exact Hf].
      + apply sim_checked; [reflexivity|exact Hf].
    - apply sim_quiet; [reflexivity|]. apply sim_body; assumption.
    - replace (child false (emb w 0 0 lv)) with (emb w 0 0 0)
        by (unfold child, emb; cbn; rewrite orb_false_r; reflexivity).
      eapply sim_bind with (P := expect_s [] 0).
      + apply sim_body; [exact Hs|exact Hf|apply Nat.le_refl].
      + intros r w1. apply mono_same; reflexivity.
      + intros ->. reflexivity.
      + intros r w1 [HP _] Hf1. rewrite (reap_closed w lv HP). cbn [sbind].
        apply sim_checked; [reflexivity|exact Hf].
    - (* [if c; then t; rest] runs like the clause [elif c; then t; rest] *)
      apply sim_quiet; [reflexivity|].
      apply (sim_elses stk ctx lv ((Some c, t) :: elses) w); [|exact Hf|exact Hl].
      cbn [flat_map fst snd]. rewrite <- app_assoc. exact Hs.
    - apply app_eq_nil in Hs as [Hs1 Hs2]. apply sim_quiet; [reflexivity|].
      apply (Hrecw u c b stk ctx lv success w); try assumption. reflexivity.
    - apply sim_quiet; [reflexivity|].
      apply (sim_for stk ctx lv b n success w); try assumption. reflexivity.
    - apply sim_quiet; [reflexivity|].
      apply (sim_case stk ctx lv arms false success w (Some 0)); try assumption; reflexivity.
    - apply sim_checked; [reflexivity|].
      intros f' body'. cbn. destruct (Nat.eqb f' f); [intros E; inversion E; subst; exact Hs|apply Hf].
    - (* compound command with redirections: transparent on both sides, also for the errexit decision *)
      assert (Hs' : scope_cmd ctx c0 = []) by (destruct c0; try discriminate Hs; exact Hs).
      exact (Hrec c0 stk ctx lv w Hs' Hf Hl).
  Qed.

  Lemma sim_while_step u c b stk ctx lv res w :
    scope_clist scope_cmd (FCond :: ctx) c = [] -> scope_clist scope_cmd (FLoop :: ctx) b = [] ->
    funs_ok (sh w) -> length ctx <= lv -> snd res = Normal ->
    sim (expect_s ctx lv) (while_step rec recw u c b (exempt stk) res w)
        (swhile_step srec srecw u c b stk (fst res) (emb w 0 0 (S lv))).
  Proof.
    intros Hc Hb Hf Hl Hn. unfold while_step, swhile_step.
    eapply sim_sbind with (P := expect_s (FCond :: ctx) (S lv)).
    - apply sim_cond; [exact Hc|exact Hf|cbn [length]; lia].
    - intros rc w1. apply mono_while_cont; assumption.
    - intros rc w1 HP Hf1. rewrite (set_last_id (fst rc) w1) by apply HP.
      destruct (is_normal rc) eqn:En; cbn [negb].
      + destruct (expect_s_normal HP En) as [-> Hok]. cbn [sbind]. rewrite Hok.
        destruct (Bool.eqb (is_success rc) u).
        * apply sim_out; [|exact Hf1]. split; [apply expect_normal, Hn|reflexivity].
        * eapply sim_sbind with (P := expect_s (FLoop :: ctx) (S lv)).
          -- apply sim_body; [exact Hb|exact Hf1|cbn [length]; lia].
          -- intros r w3. apply mono_loop_tail, Mrecw.
          -- intros r w3 HP3 Hf3.
             apply (body_step ctx lv r w3 _ _ (fun rv s2 => srecw u c b stk rv s2)); [exact HP3|exact Hf3|].
             intros Hd. apply (Hrecw u c b stk ctx lv (dec_result r) w3); assumption.
      + (* The condition ended with break/continue/return/exit.  Only here can brush and bash part:
           when its status says stop, bash reports the last body's status [fst res], brush the
           condition's [fst rc]; the model marks exactly that case with [GCond].  The final world
           is ghost-free, so [Hmk]: the mark's condition is false, whence [fst res = fst rc]. *)
        cbn [finish sim ghost mark set_last upd_sh]. intros Hgh.
        assert (Hmk : ((is_break rc || is_continue rc) && Bool.eqb (is_success rc) u && negb (Nat.eqb (fst res) (fst rc))) = false).
        { destruct (_ && negb (Nat.eqb (fst res) (fst rc))); [discriminate Hgh|reflexivity]. }
        split; [|exact Hf1]. split; [|reflexivity].
        destruct (is_return_or_exit rc) eqn:Ea.
        { destruct rc as [code [| | | |]]; try discriminate Ea; exact (expect_abort Ea (proj1 HP) ctx lv _). }
        destruct HP as [HP Hsy]. destruct rc as [code fl]. unfold expect in HP. cbn [fst snd] in *.
        unfold is_break, is_continue, is_success, dec_result in *. cbn [fst snd] in *.
        destruct fl as [|k|k| |]; try discriminate; cbn [dec orb andb] in *.
        * destruct HP as [-> Hk]. cbn [sbind]. unfold ok. rewrite slast_emb. cbn [set_last upd_sh sh sh_set_last last].
          unfold expect. cbn [length] in Hk.
          destruct (Bool.eqb (Nat.eqb code 0) u).
          -- apply negb_false_iff, Nat.eqb_eq in Hmk. rewrite Hmk.
             destruct k as [|k']; cbn [snd fst dec]; [reflexivity|]. split; [reflexivity|lia].
          -- rewrite slist_skip by reflexivity. cbn [sbind].
             destruct k as [|k']; cbn [snd fst dec]; [reflexivity|]. split; [reflexivity|lia].
        * (* continue: it cannot target this loop from its own condition *)
          destruct HP as [-> Hk]. destruct k as [|k']; [discriminate Hk|]. cbn [nth_error] in Hk.
          cbn [sbind]. unfold ok. rewrite slast_emb. cbn [set_last upd_sh sh sh_set_last last].
          unfold expect. cbn [snd fst dec].
          destruct (Bool.eqb (Nat.eqb code 0) u).
          -- apply negb_false_iff, Nat.eqb_eq in Hmk. rewrite Hmk. split; [reflexivity|exact Hk].
          -- rewrite slist_skip by reflexivity. cbn [sbind]. split; [reflexivity|exact Hk].
  Qed.
End Sim.

Theorem sim_exec fuel :
  (forall c stk ctx l w, scope_cmd ctx c = [] -> funs_ok (sh w) -> length ctx <= l ->
     sim (expect_c c stk ctx l) (exec fuel c (exempt stk) w) (sexec fuel c stk (emb w 0 0 l))) /\
  (forall u c b stk ctx l res w,
     scope_clist scope_cmd (FCond :: ctx) c = [] -> scope_clist scope_cmd (FLoop :: ctx) b = [] ->
     funs_ok (sh w) -> length ctx <= l -> snd res = Normal ->
     sim (expect_s ctx l) (while_loop fuel u c b (exempt stk) res w)
         (swhile fuel u c b stk (fst res) (emb w 0 0 (S l)))).
Proof.
  induction fuel as [|f [IH1 IH2]]; split; intros.
  - cbn. intros _. reflexivity.
  - cbn. intros _. reflexivity.
  - cbn [exec sexec]. rewrite busy_emb0.
    apply sim_cmd; try assumption; apply (mono_exec f).
  - cbn [while_loop swhile].
    apply sim_while_step; try assumption; apply (mono_exec f).
Qed.

Lemma sprogram_skip srec cs s : busy s = true -> sprogram srec cs s = SNorm s.
Proof.
  intros H. induction cs as [|c cs IH]; cbn [sprogram]; [reflexivity|].
  rewrite (slist_skip srec) by exact H. exact IH.
Qed.

Lemma sim_program fuel cs : forall res w,
  flat_map (scope_clist scope_cmd []) cs = [] -> funs_ok (sh w) ->
  (cs = [] -> expect_s [] 0 res w (SNorm (emb w 0 0 0))) ->
  sim (expect_s [] 0) (program_items (exec fuel) cs res w) (sprogram (sexec fuel) cs (emb w 0 0 0)).
Proof.
  pose proof (sim_exec fuel) as [H1 H2]. pose proof (mono_exec fuel) as [M1 M2].
  induction cs as [|c cs IH]; intros res w Hs Hf He; cbn [program_items sprogram].
  - apply sim_out; [exact (He eq_refl)|exact Hf].
  - cbn [flat_map] in Hs. apply app_eq_nil in Hs as [Hs1 Hs2].
    eapply sim_sbind with (P := expect_s [] 0).
    + apply (sim_clist (exec fuel) (sexec fuel) M1 H1 c [] [] 0 w Hs1 Hf (Nat.le_refl _)).
    + intros r w1. destruct (negb (is_normal r)); [apply mono_same; reflexivity|].
      eapply mono_shift; [|apply mono_program, M1]. reflexivity.
    + intros r w1 HP Hf1. rewrite (set_last_id (fst r) w1) by apply HP.
      apply item_step; [exact HP|exact Hf1|apply sprogram_skip|]. intros En.
      apply IH; try assumption. intros _. exact (expect_s_back HP En).
Qed.

(** ** what an observer sees: how the run ended, the final [$?], the output *)
Inductive ending := ENormal | EReturn | EExit | EStray.
Definition obs_model (o : outcome result) : option (ending * status * list event) :=
  match o with
  | Out r w =>
      Some (match snd r with Normal => ENormal | ReturnFn => EReturn | ExitShell => EExit | _ => EStray end,
            fst r, out w)
  | OutOfFuel _ => None
  end.
Definition obs_spec (o : sres) : option (ending * status * list event) :=
  match o with
  | SNorm s => Some (ENormal, slast s, b_out s)
  | SRet s => Some (EReturn, slast s, b_out s)
  | SExit s => Some (EExit, slast s, b_out s)
  | SFuel => None
  end.
Definition ghost_free (o : outcome result) : Prop :=
  match o with Out _ w => ghost w = [] | OutOfFuel g => g = [] end.

Theorem cf_simulation fuel p :
  well_scoped p -> sim (expect_s [] 0) (run_model fuel p) (run_spec fuel p).
Proof.
  intros Hs. apply (sim_program fuel p success init_world Hs).
  - intros f body E. discriminate E.
  - intros _. split; reflexivity.
Qed.

Theorem cf_trace_eq fuel p :
  well_scoped p -> ghost_free (run_model fuel p) -> obs_model (run_model fuel p) = obs_spec (run_spec fuel p).
Proof.
  intros Hs Hg. pose proof (cf_simulation fuel p Hs) as H.
  destruct (run_model fuel p) as [r w|g]; cbn [sim ghost_free obs_model] in *; [|rewrite (H Hg); reflexivity].
  destruct (H Hg) as [[He _] _]. apply expect_closed in He. destruct (snd r); try contradiction.
  - rewrite He. reflexivity.
  - destruct He as (b & c & l & ->). reflexivity.
  - destruct He as (s & -> & H1 & H2). cbn. rewrite H1, H2. reflexivity.
Qed.
