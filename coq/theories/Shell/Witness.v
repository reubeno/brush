(** C02/C03 — concrete programs: the known divergences between brush (model) and bash (spec),
    each outside [well_scoped] or leaving a ghost mark, and a non-trivial program inside the
    theorem's hypotheses. *)
From BV Require Import Base.Prelude Shell.Syntax Shell.ModelExec Shell.SpecExec Shell.Scope Shell.Simulation.
Close Scope Z_scope.
Open Scope nat_scope.

Definition one (c : cmd) : andor := ((false, [c]), []).
Definition neg (c : cmd) : andor := ((true, [c]), []).
Definition mark k := one (Leaf (LMark k)).
Definition probe := one (Leaf LProbe).
Definition tt := Leaf (LStatus true).
Definition ff := Leaf (LStatus false).
Definition st (n : nat) : cmd := Subshell [one (Leaf (LExit (Some (Z.of_nat n))))].

Definition differs (fuel : nat) (p : program) : Prop :=
  obs_model (run_model fuel p) <> obs_spec (run_spec fuel p).
Definition ghost_of (o : outcome result) : list gk := match o with Out _ w => ghost w | OutOfFuel g => g end.

(** break; echo m1                      brush: aborts the list; bash: message, goes on *)
Definition w_stray : program := [[one (Leaf (LBreak 1)); mark 1]].
(** for v in 1 2; do for w in 1; do echo m1; break 5; done; echo m2; done; echo m3 *)
Definition w_overcount : program :=
  [[one (For false 2 [one (For false 1 [mark 1; one (Leaf (LBreak 5))]); mark 2]); mark 3]].
(** for v in 1 2; do echo m1; break 0; echo m2; done      brush: status 2, goes on; bash: leaves the loops *)
Definition w_zero : program := [[one (For false 2 [mark 1; one (Leaf (LBreak 0)); mark 2])]].
(** while continue; do true; done; echo m1      brush: the loop ends; bash: spins *)
Definition w_cont_cond : program := [[one (Loop false [one (Leaf (LContinue 1))] [one tt]); mark 1]].
(** f0() { break; }; for v in 1 2; do f0; echo "?=$?"; done     brush: "not yet implemented", 99 *)
Definition w_fn_break : program :=
  [[one (FunDef 0 (Brace [one (Leaf (LBreak 1))])); one (For false 2 [one (Leaf (LCall 0)); probe])]].
(** true | exit 3; echo m1              (repaired) brush used to exit the parent shell *)
Definition w_stage_leak : program := [[((false, [tt; Leaf (LExit (Some 3%Z))]), []); mark 1]].
(** ( ! exit 3 ); echo "?=$?"           (repaired) brush used to print 0; bash: 3 *)
Definition w_bang_exit : program := [[one (Subshell [neg (Leaf (LExit (Some 3%Z)))]); probe]].
(** for v in 1; do while ! break; do echo m1; done; echo "?=$?"; done      brush: 1; bash: 0 *)
Definition w_cond_status : program :=
  [[one (For false 1 [one (Loop false [neg (Leaf (LBreak 1))] [mark 1]); probe])]].
(** set -e; { false && true; }; echo m1     (repaired) brush used to exit 1; bash: goes on (C03) *)
Definition w_compound : program :=
  [[one (Leaf (LSet OErrexit true)); one (Brace [((false, [ff]), [(true, (false, [tt]))])]); mark 1]].

Lemma stray_refuted : differs 20 w_stray /\ scope_program w_stray = [RStray].
Proof. split; [vm_compute; discriminate|reflexivity]. Qed.
Lemma overcount_refuted : differs 20 w_overcount /\ scope_program w_overcount = [RStray].
Proof. split; [vm_compute; discriminate|reflexivity]. Qed.
Lemma zero_refuted : differs 20 w_zero /\ scope_program w_zero = [RZero].
Proof. split; [vm_compute; discriminate|reflexivity]. Qed.
Lemma cont_cond_refuted : differs 20 w_cont_cond /\ scope_program w_cont_cond = [RContCond].
Proof. split; [vm_compute; discriminate|reflexivity]. Qed.
Lemma fn_break_refuted : differs 20 w_fn_break /\ scope_program w_fn_break = [RStray].
Proof. split; [vm_compute; discriminate|reflexivity]. Qed.
Lemma cond_status_refuted : differs 20 w_cond_status /\ ghost_of (run_model 20 w_cond_status) = [GCond].
Proof. split; [vm_compute; discriminate|reflexivity]. Qed.
(** regressions: on the repaired [Pipeline::execute] the former witnesses agree with the spec *)
Definition agrees (fuel : nat) (p : program) : Prop :=
  obs_model (run_model fuel p) = obs_spec (run_spec fuel p) /\ ghost_of (run_model fuel p) = [].
Lemma stage_leak_repaired : agrees 20 w_stage_leak /\ obs_model (run_model 20 w_stage_leak) = Some (ENormal, 0, [EMark 1]).
Proof. vm_compute. repeat split. Qed.
Lemma bang_exit_repaired : agrees 20 w_bang_exit /\ obs_model (run_model 20 w_bang_exit) = Some (ENormal, 0, [EProbe 3]).
Proof. vm_compute. repeat split. Qed.
Lemma compound_repaired : agrees 20 w_compound /\ obs_model (run_model 20 w_compound) = Some (ENormal, 0, [EMark 1]).
Proof. vm_compute. repeat split. Qed.

(** a program inside the hypotheses of the theorem that exercises loops with break/continue at
    two levels, a counter-driven while, if/elif, case fallthrough, a function with return, a
    subshell with exit, and-or lists, [!], and errexit in exempt and non-exempt positions:

    f0() { echo m1; return 3; echo m2; }
    for v in 1 2 3; do
      while (( c0++ < 2 )); do echo m3; continue; echo m4; done
      if f0; then echo m5; elif ( exit 4 ); then echo m6; else echo "?=$?"; fi
      case x in x) echo m7 ;& y) ! true ;;& x) break 1 ;; esac
      echo m8
    done
    echo "?=$?"; set -e; false || echo m9; ! false; if false; then :; fi; ( exit 7 ); echo m10 *)
Definition ex_prog : program :=
  [[one (FunDef 0 (Brace [mark 1; one (Leaf (LReturn (Some 3%Z))); mark 2]))];
   [one (For false 3
      [one (Loop false [one (Tick 0 2)] [mark 3; one (Leaf (LContinue 1)); mark 4]);
       one (If [one (Leaf (LCall 0))] [mark 5] [(Some [one (st 4)], [mark 6]); (None, [probe])]);
       one (Case [(true, PFall, Some [mark 7]); (false, PNext, Some [neg tt]); (true, PExit, Some [one (Leaf (LBreak 1))])]);
       mark 8])];
   [probe; one (Leaf (LSet OErrexit true)); ((false, [ff]), [(false, (false, [Leaf (LMark 9)]))]); neg ff;
    one (If [one ff] [one tt] []); one (st 7); mark 10]].

Lemma ex_prog_ok :
  well_scoped ex_prog /\ ghost_free (run_model 40 ex_prog) /\
  obs_model (run_model 40 ex_prog) =
    Some (EExit, 7, rev [EMark 3; EMark 3; EMark 1; EProbe 4; EMark 7; EProbe 0; EMark 9]).
Proof. split; [reflexivity|]. split; vm_compute; reflexivity. Qed.

(** C03, extended fragment: a brace group that carries a redirection and fails quietly does not end
    the shell; an assignment whose command substitution fails does, although [$?] was already 1:

    set -e; { false && true; } 2>/dev/null; echo m1; false || v=$(false); echo m2 *)
Definition ex_redir_assign : program :=
  [[one (Leaf (LSet OErrexit true));
    one (Redir RErrNull (Brace [((false, [ff]), [(true, (false, [tt]))])])); mark 1;
    ((false, [ff]), [(false, (false, [Leaf (LAssign (Some 1))]))]); mark 2]].
Lemma ex_redir_assign_ok :
  well_scoped ex_redir_assign /\ ghost_free (run_model 20 ex_redir_assign) /\
  obs_model (run_model 20 ex_redir_assign) = Some (EExit, 1, [EMark 1]) /\
  obs_spec (run_spec 20 ex_redir_assign) = Some (EExit, 1, [EMark 1]).
Proof.
  split; [reflexivity|]. split; [vm_compute; reflexivity|]. split; vm_compute; reflexivity.
Qed.
