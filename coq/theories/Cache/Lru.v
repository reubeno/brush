(** C15 — memoisation behind the parse entry points.

    brush memoises [tokenize_str_with_options], [word::parse], [arithmetic::parse],
    [Shell::parse_string] (and prompt parsing, regex compilation) in bounded LRU stores of
    the `cached` crate: the `convert` expression computes a key from the arguments, a hit
    returns the stored value, a miss calls the function and stores the value, possibly
    evicting other entries.

    [Memo] is the generic bounded memo table: the store is an association list, and what
    happens to the store after a hit / after an insertion is an *arbitrary* function that
    may only drop or reorder entries ([incl]).  Every capacity and every eviction order is an
    instance.  [memo_transparent] says that the table is invisible provided the key determines
    the function's value.

    [lru_*] is the concrete policy of `cached::LruCache` (most recently used first; a hit moves
    the entry to the front; an insertion into a full store drops the least recently used
    entry); it is executable, an instance of the generic table, and compared with the real
    `cached::LruCache` by the correspondence check (entry [c15lru]). *)
From BV Require Import Base.Prelude.

Section Memo.
  Variables A K V : Type.
  Variable K_eqb : K -> K -> bool.
  Hypothesis K_eqb_eq : forall a b, K_eqb a b = true <-> a = b.

  Definition store := list (K * V).

  Fixpoint lookup (k : K) (s : store) : option V :=
    match s with
    | [] => None
    | (k', v) :: s' => if K_eqb k k' then Some v else lookup k s'
    end.

  Variable on_hit : K -> store -> store.
  Variable on_insert : store -> store.
  Hypothesis on_hit_incl : forall k s, incl (on_hit k s) s.
  Hypothesis on_insert_incl : forall s, incl (on_insert s) s.

  Variable f : A -> V.
  Variable key : A -> K.

  Definition call (s : store) (a : A) : V * store :=
    match lookup (key a) s with
    | Some v => (v, on_hit (key a) s)
    | None => let v := f a in (v, on_insert ((key a, v) :: s))
    end.

  Fixpoint run_history (s : store) (h : list A) : store :=
    match h with
    | [] => s
    | a :: h' => run_history (snd (call s a)) h'
    end.

  (** The value the memoised entry point returns for [a] after the process has already
      served the calls in [history] (from an empty store). *)
  Definition cached_call (history : list A) (a : A) : V := fst (call (run_history [] history) a).

  Definition sound (s : store) : Prop :=
    forall k v, In (k, v) s -> exists a, key a = k /\ f a = v.

  Lemma lookup_in k s v : lookup k s = Some v -> In (k, v) s.
  Proof.
    induction s as [|[k' v'] s IH]; cbn; [discriminate|].
    destruct (K_eqb k k') eqn:E.
    - intros H; inversion H; subst. apply K_eqb_eq in E; subst. now left.
    - intros H; right; auto.
  Qed.

  Lemma sound_incl s s' : incl s' s -> sound s -> sound s'.
  Proof. intros Hi Hs k v Hin. apply Hs, Hi, Hin. Qed.

  Lemma call_sound s a : sound s -> sound (snd (call s a)).
  Proof.
    intros Hs. unfold call. destruct (lookup (key a) s) as [v|] eqn:E; cbn.
    - eapply sound_incl; [apply on_hit_incl | exact Hs].
    - eapply sound_incl; [apply on_insert_incl|].
      intros k v [H|H]; [inversion H; subst; eauto | auto].
  Qed.

  Lemma run_history_sound h : forall s, sound s -> sound (run_history s h).
  Proof. induction h as [|a h IH]; intros s Hs; cbn; [exact Hs | apply IH, call_sound, Hs]. Qed.

  Hypothesis key_determines : forall a b, key a = key b -> f a = f b.

  Lemma call_value s a : sound s -> fst (call s a) = f a.
  Proof.
    intros Hs. unfold call. destruct (lookup (key a) s) as [v|] eqn:E; cbn; [|reflexivity].
    apply lookup_in in E. destruct (Hs _ _ E) as (b & Hk & Hv). rewrite <- Hv. now apply key_determines.
  Qed.

  Lemma sound_nil : sound [].
  Proof. intros k v []. Qed.

  Theorem memo_transparent : forall history a, cached_call history a = f a.
  Proof.
    intros h a. unfold cached_call. apply call_value, run_history_sound, sound_nil.
  Qed.

  Fixpoint answers (s : store) (h : list A) : list V :=
    match h with
    | [] => []
    | a :: h' => fst (call s a) :: answers (snd (call s a)) h'
    end.

  Lemma answers_map h : forall s, sound s -> answers s h = map f h.
  Proof.
    induction h as [|a h IH]; intros s Hs; cbn; [reflexivity|].
    rewrite call_value by exact Hs. f_equal. apply IH, call_sound, Hs.
  Qed.

  Theorem memo_session_transparent : forall history, answers [] history = map f history.
  Proof. intros h. apply answers_map, sound_nil. Qed.
End Memo.

Arguments lookup {K V} K_eqb k s.
Arguments call {A K V} K_eqb on_hit on_insert f key s a.
Arguments run_history {A K V} K_eqb on_hit on_insert f key s h.
Arguments cached_call {A K V} K_eqb on_hit on_insert f key history a.
Arguments answers {A K V} K_eqb on_hit on_insert f key s h.

Section Lru.
  Variables K V : Type.
  Variable K_eqb : K -> K -> bool.
  Variable cap : nat.

  Fixpoint remove_key (k : K) (s : list (K * V)) : list (K * V) :=
    match s with
    | [] => []
    | (k', v) :: s' => if K_eqb k k' then s' else (k', v) :: remove_key k s'
    end.

  Definition lru_hit (k : K) (s : list (K * V)) : list (K * V) :=
    match lookup K_eqb k s with
    | Some v => (k, v) :: remove_key k s
    | None => s
    end.

  Definition lru_insert (s : list (K * V)) : list (K * V) := firstn cap s.

  Lemma remove_key_incl k s : incl (remove_key k s) s.
  Proof.
    induction s as [|[k' v] s IH]; cbn; [apply incl_refl|].
    destruct (K_eqb k k'); [apply incl_tl, incl_refl|].
    apply incl_cons; [now left | apply incl_tl, IH].
  Qed.

  Hypothesis K_eqb_eq : forall a b, K_eqb a b = true <-> a = b.

  Lemma lru_hit_incl k s : incl (lru_hit k s) s.
  Proof.
    unfold lru_hit. destruct (lookup K_eqb k s) as [v|] eqn:E; [|apply incl_refl].
    apply incl_cons; [eapply lookup_in; eauto | apply remove_key_incl].
  Qed.

  Lemma lru_insert_incl s : incl (lru_insert s) s.
  Proof. unfold lru_insert. intros x Hx. rewrite <- (firstn_skipn cap s). apply in_or_app; now left. Qed.

  Lemma remove_key_length k s : (length (remove_key k s) <= length s)%nat.
  Proof. induction s as [|[k' v] s IH]; cbn; [lia|]. destruct (K_eqb k k'); cbn; lia. Qed.

  Lemma lookup_remove_length k s v : lookup K_eqb k s = Some v -> S (length (remove_key k s)) = length s.
  Proof.
    induction s as [|[k' v'] s IH]; cbn; [discriminate|].
    destruct (K_eqb k k'); [reflexivity|]. intros H. cbn. now rewrite IH.
  Qed.
End Lru.

Arguments lru_hit {K V} K_eqb k s.
Arguments lru_insert {K V} cap s.
Arguments remove_key {K V} K_eqb k s.

Section LruMemo.
  Variables A K V : Type.
  Variable K_eqb : K -> K -> bool.
  Hypothesis K_eqb_eq : forall a b, K_eqb a b = true <-> a = b.
  Variable cap : nat.
  Variable f : A -> V.
  Variable key : A -> K.

  Definition lru_call := call K_eqb (lru_hit K_eqb) (lru_insert cap) f key.
  Definition lru_run := run_history K_eqb (lru_hit K_eqb) (lru_insert cap) f key.
  Definition lru_cached_call := cached_call K_eqb (lru_hit K_eqb) (lru_insert cap) f key.

  Theorem lru_transparent : (forall a b, key a = key b -> f a = f b) ->
    forall history a, lru_cached_call history a = f a.
  Proof.
    intros Hk h a. apply memo_transparent; auto using lru_hit_incl, lru_insert_incl.
  Qed.

  Lemma lru_call_bounded s a : (length s <= cap)%nat -> (length (snd (lru_call s a)) <= cap)%nat.
  Proof.
    intros Hs. unfold lru_call, call. destruct (lookup K_eqb (key a) s) as [v|] eqn:E; cbn.
    - unfold lru_hit. rewrite E. cbn. erewrite lookup_remove_length by eauto. exact Hs.
    - unfold lru_insert. rewrite firstn_length. lia.
  Qed.

  Theorem lru_bounded h : forall s, (length s <= cap)%nat -> (length (lru_run s h) <= cap)%nat.
  Proof.
    induction h as [|a h IH]; intros s Hs; cbn; [exact Hs|]. apply IH, lru_call_bounded, Hs.
  Qed.
End LruMemo.

(** ** The hypothesis is necessary: a key that drops an input makes the table visible.
    [f] is a function of (text, option); the key keeps only the text. *)
Definition ex_f (a : nat * bool) : nat := if snd a then S (fst a) else fst a.
Definition ex_key_bad (a : nat * bool) : nat := fst a.
Definition ex_key_good (a : nat * bool) : nat * bool := a.
Definition pair_eqb (a b : nat * bool) : bool := Nat.eqb (fst a) (fst b) && Bool.eqb (snd a) (snd b).

Lemma memo_key_drop_visible :
  lru_cached_call _ _ _ Nat.eqb 64 ex_f ex_key_bad [(7%nat, false)] (7%nat, true) <> ex_f (7%nat, true).
Proof. vm_compute. discriminate. Qed.

Lemma pair_eqb_eq a b : pair_eqb a b = true <-> a = b.
Proof.
  destruct a as [n x], b as [m y]; unfold pair_eqb; cbn.
  rewrite andb_true_iff, Nat.eqb_eq, Bool.eqb_true_iff. split; [intros [-> ->]; reflexivity | intros H; inversion H; auto].
Qed.

Lemma memo_full_key_invisible : forall h a,
  lru_cached_call _ _ _ pair_eqb 64 ex_f ex_key_good h a = ex_f a.
Proof. intros. apply lru_transparent; [exact pair_eqb_eq | intros x y H; unfold ex_key_good in H; now subst]. Qed.
