(** C15 — the memoisation sites found in the brush sources (gen/C15CacheKeys.v) are transparent.

    A call of a memoised function is an assignment of values to its parameter names
    ([env : string -> Val]); the function's result depends on the values of its parameters
    ([F (map env params)] — purity, which the correspondence check tests on the real code);
    the `convert` expression copies the parameters named in [cs_key_idents] into the key.
    [covers]: every parameter occurs in the key.  The regenerated obligation
    [keys_cover_inputs] decides this for every site; [covered_site_transparent] turns it into
    the hypothesis of [memo_transparent]. *)
From Coq Require Import String Ascii.
From BV Require Import Base.Prelude Cache.Lru gen.C15CacheKeys.

Definition str_mem (x : string) (l : list string) : bool := existsb (String.eqb x) l.

Definition covers (c : cache_site) : bool :=
  forallb (fun p => str_mem p (cs_key_idents c)) (cs_params c).

Definition well_formed_site (c : cache_site) : bool :=
  Nat.eqb (length (cs_key_comps c)) (length (cs_key_idents c)) &&
  Nat.eqb (length (cs_params c)) (length (cs_ptypes c)) &&
  Nat.leb 1 (cs_size c).

(** Equality and hashing of a key component type are the derived, structural ones. *)
Definition structural (k : key_type) : bool :=
  str_mem "PartialEq" (kt_derives k) && str_mem "Eq" (kt_derives k) && str_mem "Hash" (kt_derives k) &&
  match kt_manual_impls k with [] => true | _ => false end.

Definition primitive_type (t : string) : bool :=
  str_mem t ["String"; "bool"; "u8"; "u16"; "u32"; "u64"; "usize"; "i8"; "i16"; "i32"; "i64"; "isize"; "char"; "unit"]%string.

Definition short_name (t : string) : string :=
  (* last path segment: "brush_parser::ParserOptions" -> "ParserOptions" *)
  let fix go (s acc : string) : string :=
    match s with
    | EmptyString => acc
    | String c s' => if Ascii.eqb c (Ascii.ascii_of_nat 58) then go s' EmptyString else go s' (acc ++ String c EmptyString)%string
    end in go t EmptyString.

Definition type_known (t : string) : bool :=
  primitive_type t || existsb (fun k => String.eqb (kt_name k) (short_name t)) key_types.

(** Every component type of every key, and every field type of those, is primitive or a listed
    structural type. *)
Definition key_types_closed : bool :=
  forallb (fun c => forallb type_known (cs_key_comps c)) cache_sites &&
  forallb (fun k => forallb (fun f => type_known (snd f)) (kt_fields k)) key_types.

(** ** Regenerated obligations (re-checked against what the code says now) *)
Lemma keys_cover_inputs : forallb covers cache_sites = true.
Proof. vm_compute. reflexivity. Qed.

Lemma sites_well_formed : forallb well_formed_site cache_sites = true.
Proof. vm_compute. reflexivity. Qed.

Lemma key_types_structural : forallb structural key_types = true /\ key_types_closed = true.
Proof. split; vm_compute; reflexivity. Qed.

(** The parser crates hold no process-global state of their own besides the listed stores. *)
Lemma no_other_parser_state : parser_globals = [].
Proof. reflexivity. Qed.

Lemma str_mem_in x l : str_mem x l = true -> In x l.
Proof.
  unfold str_mem. rewrite existsb_exists. intros (y & Hy & E). apply String.eqb_eq in E. now subst.
Qed.

Lemma covered_key_determines {Val R} (c : cache_site) (F : list Val -> R) :
  covers c = true ->
  forall e1 e2 : string -> Val,
  map e1 (cs_key_idents c) = map e2 (cs_key_idents c) -> F (map e1 (cs_params c)) = F (map e2 (cs_params c)).
Proof.
  intros Hc e1 e2 Hk. f_equal. apply map_ext_in. intros p Hp. apply (ext_in_map Hk).
  unfold covers in Hc. rewrite forallb_forall in Hc. apply str_mem_in, Hc, Hp.
Qed.

Section Site.
  Variables Val R : Type.
  Variable key_eqb : list Val -> list Val -> bool.
  Hypothesis key_eqb_eq : forall a b, key_eqb a b = true <-> a = b.
  Variable on_hit : list Val -> list (list Val * R) -> list (list Val * R).
  Variable on_insert : list (list Val * R) -> list (list Val * R).
  Hypothesis on_hit_incl : forall k s, incl (on_hit k s) s.
  Hypothesis on_insert_incl : forall s, incl (on_insert s) s.

  Definition site_call (c : cache_site) (F : list Val -> R) (history : list (string -> Val)) (e : string -> Val) : R :=
    cached_call key_eqb on_hit on_insert
      (fun e => F (map e (cs_params c))) (fun e => map e (cs_key_idents c)) history e.

  Theorem covered_site_transparent c F : covers c = true ->
    forall history e, site_call c F history e = F (map e (cs_params c)).
  Proof.
    intros Hc h e. unfold site_call. apply memo_transparent; auto using covered_key_determines.
  Qed.

  Theorem all_sites_transparent :
    Forall (fun c => forall F history e, site_call c F history e = F (map e (cs_params c))) cache_sites.
  Proof.
    apply Forall_forall. intros c Hin F h e. apply covered_site_transparent.
    pose proof keys_cover_inputs as H. rewrite forallb_forall in H. now apply H.
  Qed.
End Site.

(** A site whose key drops a parameter is *not* covered, and such a table is visible
    (non-vacuity of the obligation: it can fail). *)
Definition bad_site : cache_site :=
  {| cs_where := "example"; cs_fn := "f"; cs_params := ["input"; "options"]; cs_ptypes := ["&str"; "&O"];
     cs_key_type := "String"; cs_key_comps := ["String"]; cs_key_idents := ["input"]; cs_size := 64 |}%string.

Lemma dropped_option_is_not_covered : covers bad_site = false.
Proof. reflexivity. Qed.

Definition ex_env (t o : nat) (x : string) : nat := if String.eqb x "input" then t else o.

Lemma dropped_option_is_visible :
  site_call nat nat (fun a b => if list_eq_dec Nat.eq_dec a b then true else false)
    (fun k s => s) (fun s => firstn 64 s) bad_site (fun l => fold_right Nat.add 0%nat l) [ex_env 7 0] (ex_env 7 1)
  <> fold_right Nat.add 0%nat (map (ex_env 7 1) (cs_params bad_site)).
Proof. vm_compute. discriminate. Qed.

(** The extractor recognised every shape at the memoisation sites (regenerated obligation). *)
Lemma cache_shapes_recognised : cache_unrecognised = [].
Proof. reflexivity. Qed.
