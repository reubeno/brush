(** C10 — the layered descriptor table against the flat one: one redirection, then lists of them
    ([layered_refines_flat]); what noclobber protects; the shell's own table after a command
    without [exec] and after [exec]; what an external command receives. *)
From BV Require Import Base.Prelude Redir.FdTable Redir.Apply Redir.Spec Redir.Prog Redir.Interp Redir.SpecInterp.
Local Open Scope nat_scope.

Definition agree (T L P : tbl) : Prop := forall n, flat_lookup T n = try_fd L P n.

Lemma flat_tset T n e m : flat_lookup (tset T n e) m = if Nat.eqb n m then e else flat_lookup T m.
Proof. unfold flat_lookup. rewrite tlookup_tset. destruct (Nat.eqb n m); reflexivity. Qed.

Lemma flat_tremove T n m : flat_lookup (tremove T n) m = if Nat.eqb n m then None else flat_lookup T m.
Proof. unfold flat_lookup. rewrite tlookup_tremove. destruct (Nat.eqb n m); reflexivity. Qed.

Lemma try_fd_tset L P n e m : try_fd (tset L n e) P m = if Nat.eqb n m then e else try_fd L P m.
Proof. unfold try_fd. rewrite tlookup_tset. destruct (Nat.eqb n m); reflexivity. Qed.

Lemma agree_nil P : agree P [] P.
Proof. intros n. reflexivity. Qed.

Lemma agree_tset T L P n e : agree T L P -> agree (tset T n e) (tset L n e) P.
Proof. intros H m. rewrite flat_tset, try_fd_tset. destruct (Nat.eqb n m); auto. Qed.

Lemma agree_close T L P n : agree T L P -> agree (tremove T n) (tset L n None) P.
Proof. intros H m. rewrite flat_tremove, try_fd_tset. destruct (Nat.eqb n m); auto. Qed.

Lemma agree_same T L P n id : agree T L P -> flat_lookup T n = Some id -> agree T (tset L n (Some id)) P.
Proof.
  intros H Hn m. rewrite try_fd_tset. destruct (Nat.eqb n m) eqn:E; auto.
  apply Nat.eqb_eq in E; subst; auto.
Qed.

Lemma k_open_w_irrelevant w p r wr t c x :
  k_open w p (fl r wr true t c x) = k_open w p (fl r true true t c x).
Proof. unfold k_open, fl; cbn. destruct (nth_error (files w) p); auto. rewrite !orb_true_r. reflexivity. Qed.

Lemma open_same nc w k p :
  k_open w p (flags_of nc (is_file w p) k) = spec_open nc w k p.
Proof.
  destruct k; cbn [flags_of spec_open]; try reflexivity.
  destruct nc; cbn [andb]; [|reflexivity].
  unfold is_file, k_open.
  destruct (nth_error (files w) p) as [[ex reg data]|] eqn:Ef; cbn; [|reflexivity].
  destruct ex, reg; cbn; reflexivity.
Qed.

Definition rel_res (P : tbl) (a : (world * tbl) + rerr) (b : (world * tbl) + rerr) : Prop :=
  match a, b with
  | inl (w1, L1), inl (w2, T2) => w1 = w2 /\ agree T2 L1 P
  | inr e1, inr e2 => e1 = e2
  | _, _ => False
  end.

Lemma rel_install P T L n w id :
  agree T L P -> rel_res P (inl (w, tset L n (Some id))) (inl (w, sys_install T n id)).
Proof. intros HA. split; [reflexivity|]. apply agree_tset, HA. Qed.

(** [fuel]: the specification defines [&>] by expansion and spends fuel on it; two units suffice *)
Lemma both_refines fuel nc w T L P p app :
  agree T L P ->
  rel_res P (both_to nc w L p app) (spec_redirect (S (S fuel)) nc w T (RBoth p app)).
Proof.
  intros HA. unfold both_to. cbn [spec_redirect].
  replace (k_open w p _) with (spec_open nc w (if app then RAppend else RWrite) p)
    by (destruct app; [apply (k_open_w_irrelevant w p false false false true false) | symmetry; apply open_same]).
  destruct (spec_open nc w (if app then RAppend else RWrite) p) as [w' [id|e]]; cbn; [|reflexivity].
  split; [reflexivity|]. apply agree_tset, agree_tset, HA.
Qed.

Lemma step_refines nc P w L T r :
  agree T L P ->
  rel_res P (setup_redirect nc P w L r) (spec_redirect1 nc w T r).
Proof.
  intros HA.
  unfold spec_redirect1. destruct r as [n k p|n out src|n out|p app|n p|n body|n s]; cbn [setup_redirect spec_redirect].
  - rewrite open_same.
    destruct (spec_open nc w k p) as [w' [id|e]]; [|reflexivity].
    replace (spec_default k) with (default_fd k) by (destruct k; reflexivity).
    apply rel_install, HA.
  - unfold default_dup_fd.
    set (dst := match n with Some n0 => n0 | None => if out then 1 else 0 end) in *.
    destruct (Nat.eqb src dst) eqn:E; [split; [reflexivity|exact HA]|].
    unfold sys_dup2. rewrite <- (HA src). destruct (flat_lookup T src) as [id|]; [|reflexivity].
    apply rel_install, HA.
  - split; [reflexivity|]. apply agree_close, HA.
  - (* &> *) apply (both_refines 1), HA.
  - (* >&word is &>, one unit of fuel later *)
    destruct n as [[|[|k]]|]; cbn [Nat.eqb]; try reflexivity; apply (both_refines 0), HA.
  - destruct (k_pipe_with w body) as [w' id]. apply rel_install, HA.
  - destruct (k_pipe_with w (s ++ [NL])) as [w' id]. apply rel_install, HA.
Qed.

Theorem layered_refines_flat : forall rs nc P w L T,
  agree T L P ->
  let '(w1, L1, e1) := apply_redirs nc P w L rs in
  let '(w2, T2, e2) := spec_apply nc w T rs in
  w1 = w2 /\ e1 = e2 /\ agree T2 L1 P.
Proof.
  induction rs as [|r rs IH]; intros nc P w L T HA; cbn [apply_redirs spec_apply].
  - auto.
  - assert (Hstep := step_refines nc P w L T r HA).
    unfold rel_res in Hstep.
    destruct (setup_redirect nc P w L r) as [[w1 L1]|e1]; destruct (spec_redirect1 nc w T r) as [[w2 T2]|e2];
      try contradiction.
    + destruct Hstep as [-> HA']. apply IH; auto.
    + subst. auto.
Qed.

(** the order of redirections matters, in the model exactly as in the specification:
    [2>&1 >c] leaves 2 on the old 1, [>c 2>&1] sends both to the file *)
Definition ex_world : world :=
  {| files := [ {| f_exists := true; f_regular := false; f_data := [] |};
                {| f_exists := true; f_regular := true; f_data := [] |};
                {| f_exists := true; f_regular := true; f_data := [] |};
                {| f_exists := true; f_regular := true; f_data := [] |};
                {| f_exists := false; f_regular := true; f_data := [] |} ];
     descs := [ {| d_file := 1; d_off := 0; d_app := false; d_r := true; d_w := false; d_std := Some 0 |};
                {| d_file := 2; d_off := 0; d_app := false; d_r := false; d_w := true; d_std := Some 1 |};
                {| d_file := 3; d_off := 0; d_app := false; d_r := false; d_w := true; d_std := Some 2 |} ] |}.
Definition ex_tbl : tbl := [(0, Some 0); (1, Some 1); (2, Some 2)].
Definition ex_world2 : world :=
  {| files := files ex_world ++ []; descs := descs ex_world |}.

Example order_matters :
  let a := apply_redirs false ex_tbl ex_world [] [RDup (Some 2) true 1; RFile None RWrite 4] in
  let b := apply_redirs false ex_tbl ex_world [] [RFile None RWrite 4; RDup (Some 2) true 1] in
  (try_fd (snd (fst a)) ex_tbl 1, try_fd (snd (fst a)) ex_tbl 2) = (Some 3, Some 1) /\
  (try_fd (snd (fst b)) ex_tbl 1, try_fd (snd (fst b)) ex_tbl 2) = (Some 3, Some 3) /\
  (flat_lookup (snd (fst (spec_apply false ex_world ex_tbl [RDup (Some 2) true 1; RFile None RWrite 4]))) 2,
   flat_lookup (snd (fst (spec_apply false ex_world ex_tbl [RFile None RWrite 4; RDup (Some 2) true 1]))) 2)
  = (Some 1, Some 3).
Proof. vm_compute. auto. Qed.

(** what the code passes to [OpenOptions], per operator *)
Theorem open_flags_table :
  flags_of false false RRead = fl true false false false false false /\
  (forall isf, flags_of false isf RWrite = fl false true false true true false) /\
  flags_of true true RWrite = fl false true false false false true /\
  flags_of true false RWrite = fl false true false false true false /\
  (forall nc isf, flags_of nc isf RAppend = fl false false true false true false) /\
  (forall nc isf, flags_of nc isf RReadWrite = fl true true false false true false) /\
  (forall nc isf, flags_of nc isf RClobber = fl false true false true true false) /\
  (forall nc w k p, k_open w p (flags_of nc (is_file w p) k) = spec_open nc w k p).
Proof. repeat split; try reflexivity; intros; try (destruct isf; reflexivity). apply open_same. Qed.

Definition file_at (w : world) (p : nat) : option fentry := nth_error (files w) p.

Lemma k_open_keeps w p {fl0 q f} :
  file_at w q = Some f -> f_exists f = true -> o_trunc fl0 = false ->
  file_at (fst (k_open w p fl0)) q = Some f.
Proof.
  unfold k_open, file_at. intros Hf Hex Ht.
  destruct (nth_error (files w) p) as [g|] eqn:Eg; [|exact Hf].
  destruct (f_exists g && o_excl fl0); [exact Hf|].
  destruct (negb (f_exists g) && negb (o_create fl0 || o_excl fl0)); [exact Hf|].
  cbn. destruct (Nat.eq_dec p q) as [->|Hne].
  - rewrite Hf in Eg. injection Eg as <-. rewrite Hex, Ht. cbn.
    apply nth_error_upd_same, nth_error_Some. congruence.
  - rewrite nth_error_upd_other by exact Hne. exact Hf.
Qed.

Lemma k_pipe_keeps w s {q f} : file_at w q = Some f -> file_at (fst (k_pipe_with w s)) q = Some f.
Proof.
  unfold k_pipe_with, file_at, new_desc; cbn. intros H. rewrite nth_error_app1; auto.
  apply nth_error_Some. congruence.
Qed.

(** redirection forms that may not overwrite under noclobber: everything except [>|], [>>],
    [<>] and the [&>] family *)
Definition guarded (r : redir) : bool :=
  match r with
  | RFile _ RWrite _ | RFile _ RRead _ => true
  | RDup _ _ _ | RClose _ _ | RHereDoc _ _ | RHereStr _ _ => true
  | _ => false
  end.

(** [>|]: the one form whose open flags carry O_TRUNC under noclobber ([step_keeps]) *)
Definition clobbers (r : redir) : bool := match r with RFile _ RClobber _ => true | _ => false end.

Lemma both_keeps w L q app p f :
  file_at w p = Some f -> f_exists f = true ->
  match both_to true w L q app with inl (w', _) => file_at w' p = Some f | inr _ => True end.
Proof.
  intros Hf Hex. unfold both_to.
  set (fl0 := if app then _ else _).
  assert (Ht : o_trunc fl0 = false) by (unfold fl0; destruct app; [|destruct (is_file w q)]; reflexivity).
  pose proof (k_open_keeps w q Hf Hex Ht) as Hk.
  destruct (k_open w q fl0) as [w' [id|e]]; [exact Hk|exact I].
Qed.

Lemma step_keeps P w L r {p f} :
  clobbers r = false -> file_at w p = Some f -> f_exists f = true ->
  match setup_redirect true P w L r with
  | inl (w', _) => file_at w' p = Some f
  | inr _ => True
  end.
Proof.
  intros Hr Hf Hex.
  destruct r as [n k q|n out src|n out|q app|n q|n body|n s]; cbn [setup_redirect].
  - assert (Ht : o_trunc (flags_of true (is_file w q) k) = false)
      by (destruct k; try discriminate Hr; try reflexivity; destruct (is_file w q); reflexivity).
    pose proof (k_open_keeps w q Hf Hex Ht) as Hk.
    destruct (k_open w q (flags_of true (is_file w q) k)) as [w' [id|e]]; [exact Hk|exact I].
  - destruct (Nat.eqb src _); [exact Hf|]. destruct (try_fd L P src); [exact Hf|exact I].
  - exact Hf.
  - apply both_keeps; assumption.
  - destruct (Nat.eqb _ 1); [apply both_keeps; assumption|exact I].
  - pose proof (k_pipe_keeps w body Hf). destruct (k_pipe_with w body); assumption.
  - pose proof (k_pipe_keeps w (s ++ [NL]) Hf). destruct (k_pipe_with w (s ++ [NL])); assumption.
Qed.

Theorem noclobber_keeps_files : forall rs P w L p f,
  forallb (fun r => negb (clobbers r)) rs = true ->
  file_at w p = Some f -> f_exists f = true ->
  file_at (fst (fst (apply_redirs true P w L rs))) p = Some f.
Proof.
  induction rs as [|r rs IH]; intros P w L p f Hg Hf Hex; cbn [apply_redirs]; [exact Hf|].
  cbn in Hg. apply andb_true_iff in Hg. destruct Hg as [Hg1 Hg2]. apply negb_true_iff in Hg1.
  pose proof (step_keeps P w L r Hg1 Hf Hex) as Hs.
  destruct (setup_redirect true P w L r) as [[w' L']|e]; cbn; auto.
Qed.

(** the same for the forms listed in [guarded]: an instance of [noclobber_keeps_files] *)
Theorem noclobber_never_truncates : forall rs P w L p f,
  forallb guarded rs = true ->
  file_at w p = Some f -> f_exists f = true -> f_regular f = true ->
  file_at (fst (fst (apply_redirs true P w L rs))) p = Some f.
Proof.
  intros rs P w L p f Hg Hf Hex _. apply noclobber_keeps_files; [|exact Hf|exact Hex].
  rewrite forallb_forall in *. intros r Hr. specialize (Hg r Hr).
  destruct r as [? [] ?| | | | | |]; try discriminate Hg; reflexivity.
Qed.

Theorem noclobber_write_refused : forall P w L n p,
  is_file w p = true -> setup_redirect true P w L (RFile n RWrite p) = inr (EOpenFail p EEXIST).
Proof.
  intros P w L n p H. cbn [setup_redirect]. rewrite open_same. cbn [spec_open andb]. rewrite H. reflexivity.
Qed.

Theorem clobber_truncates : forall nc P w L n p,
  is_file w p = true ->
  exists w' L', setup_redirect nc P w L (RFile n RClobber p) = inl (w', L') /\
                file_at w' p = Some {| f_exists := true; f_regular := true; f_data := [] |}.
Proof.
  intros nc P w L n p H. cbn [setup_redirect flags_of]. unfold is_file in H. unfold k_open.
  destruct (nth_error (files w) p) as [f|] eqn:Hf; [|discriminate].
  apply andb_true_iff in H. destruct H as [Hex Hreg]. rewrite Hex, Hreg. cbn.
  eexists _, _. split; [reflexivity|].
  unfold file_at; cbn. apply nth_error_upd_same, nth_error_Some. congruence.
Qed.

Section CmdInd.
  Variable Q : cmd -> Prop.
  Hypothesis HS : forall rs a, Q (CSimple rs a).
  Hypothesis HX : forall rs, Q (CExec rs).
  Hypothesis HG : forall k body rs, Forall Q body -> Q (CGroup k body rs).
  Hypothesis HF : forall body drs crs, Forall Q body -> Q (CFunc body drs crs).
  Fixpoint cmd_ind2 (c : cmd) : Q c :=
    let go := fix go (l : list cmd) : Forall Q l :=
      match l with [] => Forall_nil _ | x :: l' => Forall_cons _ (cmd_ind2 x) (go l') end in
    match c with
    | CSimple rs a => HS rs a
    | CExec rs => HX rs
    | CGroup k body rs => HG k body rs (go body)
    | CFunc body drs crs => HF body drs crs (go body)
    end.
End CmdInd.

Fixpoint no_exec (c : cmd) : bool :=
  match c with
  | CSimple _ _ => true
  | CExec _ => false
  | CGroup _ body _ => forallb no_exec body
  | CFunc body _ _ => forallb no_exec body
  end.

Definition keeps_P nc m (c : cmd) : Prop :=
  no_exec c = true -> forall w P L, snd (fst (run_cmd nc m c w P L)) = P.

Lemma run_list_keeps nc m body :
  Forall (keeps_P nc m) body -> forallb no_exec body = true ->
  forall w P L, snd (fst (run_list nc m body w P L)) = P.
Proof.
  induction 1 as [|c cs Hc Hcs IH]; intros Hn w P L; cbn [run_list]; auto.
  cbn in Hn. apply andb_true_iff in Hn. destruct Hn as [Hn1 Hn2].
  specialize (Hc Hn1 w P L).
  destruct (run_cmd nc m c w P L) as [[w' P'] f]; cbn in Hc; subst P'.
  destruct f; cbn; auto.
Qed.

(** After any command that contains no [exec], the shell's own (persistent) table is exactly
    what it was: every redirection went to the per-command layer. *)
Theorem shell_table_untouched : forall nc m c, no_exec c = true ->
  forall w P L, snd (fst (run_cmd nc m c w P L)) = P.
Proof.
  intros nc m c. change (keeps_P nc m c). induction c using cmd_ind2; unfold keeps_P; intros Hn w P L.
  - cbn [run_cmd]. destruct (apply_redirs nc P w L rs) as [[w1 L1] [e|]]; cbn; auto.
    destruct (simple_redirect_error m w1 L1 P e); reflexivity.
  - discriminate.
  - (* [cbn] exposes the interpreter's local list recursion, which is [run_list] *)
    cbn [run_cmd]; fold (run_list nc m). cbn [no_exec] in Hn.
    destruct (apply_redirs nc P w L rs) as [[w1 L1] [e|]].
    + destruct (simple_redirect_error m w1 L1 P e); reflexivity.
    + pose proof (run_list_keeps nc m body H Hn) as HK.
      destruct k.
      * apply HK.
      * destruct (run_list nc m body w1 P L1) as [[w2 P2] f]; destruct f; reflexivity.
      * specialize (HK w1 P L1) as HK1.
        destruct (run_list nc m body w1 P L1) as [[w2 P2] f]; cbn in HK1; subst P2. destruct f; cbn; auto.
  - cbn [run_cmd]; fold (run_list nc m). cbn [no_exec] in Hn.
    destruct (apply_redirs nc P w L crs) as [[w1 L1] [e|]].
    + destruct (simple_redirect_error m w1 L1 P e); reflexivity.
    + destruct (apply_redirs nc P w1 L1 drs) as [[w2 L2] [e|]].
      * destruct (simple_redirect_error m w2 L2 P e) as [w3 [|kd a]]; reflexivity.
      * pose proof (run_list_keeps nc m body H Hn w2 P L2) as HK.
        destruct (run_list nc m body w2 P L2) as [[w3 P3] f]; cbn in HK; subst P3. destruct f; reflexivity.
Qed.

Lemma materialize_lookup_aux L P keys n :
  flat_lookup (fold_right (fun n acc => match try_fd L P n with Some id => tset acc n (Some id) | None => acc end) [] keys) n
  = if existsb (Nat.eqb n) keys then try_fd L P n else None.
Proof.
  induction keys as [|k keys IH]; cbn [fold_right existsb]; auto.
  destruct (try_fd L P k) as [id|] eqn:Ek.
  - rewrite flat_tset. rewrite Nat.eqb_sym. destruct (Nat.eqb n k) eqn:E; cbn.
    + apply Nat.eqb_eq in E; subst; auto.
    + exact IH.
  - rewrite IH. destruct (Nat.eqb n k) eqn:E; cbn; auto.
    apply Nat.eqb_eq in E; subst. rewrite Ek. destruct (existsb (Nat.eqb k) keys); auto.
Qed.

Lemma tlookup_keys {t n} : existsb (Nat.eqb n) (map fst t) = false -> tlookup t n = None.
Proof.
  induction t as [|[k e] t IH]; cbn; [reflexivity|].
  rewrite (Nat.eqb_sym n k). destruct (Nat.eqb k n); cbn; [discriminate|exact IH].
Qed.

Lemma materialize_view L P n : flat_lookup (materialize L P) n = try_fd L P n.
Proof.
  unfold materialize. rewrite materialize_lookup_aux.
  destruct (existsb (Nat.eqb n) (map fst L ++ map fst P)) eqn:E; auto.
  rewrite existsb_app in E. apply orb_false_iff in E. destruct E as [E1 E2].
  unfold try_fd. rewrite (tlookup_keys E1), (tlookup_keys E2). reflexivity.
Qed.

Lemma agree_materialize {T L P} : agree T L P -> agree T [] (materialize L P).
Proof. intros HA n. rewrite HA. symmetry. exact (materialize_view L P n). Qed.

(** [exec rs] at the top level (no enclosing layer): afterwards the shell's table is the flat
    table the specification computes for [rs]. *)
Theorem exec_persists : forall nc m rs w P,
  let '(w1, P1, f) := run_cmd nc m (CExec rs) w P [] in
  let '(w2, T2, e) := spec_apply nc w P rs in
  e = None -> w1 = w2 /\ f = FNormal /\ forall n, flat_lookup P1 n = flat_lookup T2 n.
Proof.
  intros nc m rs w P. cbn [run_cmd].
  pose proof (layered_refines_flat rs nc P w [] P (agree_nil P)) as HR.
  destruct (apply_redirs nc P w [] rs) as [[w1 L1] e1]. destruct (spec_apply nc w P rs) as [[w2 T2] e2].
  destruct HR as [-> [-> HA]]. destruct e2 as [e|].
  - destruct (simple_redirect_error m w2 L1 P e). intros; discriminate.
  - intros _. split; auto. split; auto. intros n. symmetry. exact (agree_materialize HA n).
Qed.

Theorem child_sees_view_outside_known : forall L P T,
  agree T L P -> k_std_closed (std_flags T) = false ->
  forall n, child_view L P n = flat_lookup T n.
Proof.
  intros L P T HA Hc n. unfold child_view. rewrite <- (HA n).
  (* from 3 on both sides are the lookup; 0, 1 and 2 are open *)
  revert Hc. unfold std_flags. cbn [k_std_closed].
  destruct n as [|[|[|n]]]; [| | |reflexivity];
    destruct (flat_lookup T 0), (flat_lookup T 1), (flat_lookup T 2); (discriminate || reflexivity).
Qed.

(** regression examples for the repaired defects *)
(** [&>f] under noclobber on an existing regular file is refused and the file is untouched *)
Example regress_andgreater_noclobber :
  setup_redirect true ex_tbl ex_world [] (RBoth 2 false) = inr (EOpenFail 2 EEXIST).
Proof. vm_compute. reflexivity. Qed.
(** [4>&4] with 4 closed is a no-op *)
Example regress_selfdup_closed :
  setup_redirect false ex_tbl ex_world [] (RDup (Some 4) true 4) = inl (ex_world, []).
Proof. vm_compute. reflexivity. Qed.
(** after [2>&1] an external command gets the shell's stdout (description 1) on 2 *)
Example regress_std_dup :
  child_view [(2, Some 1)] ex_tbl 2 = Some 1.
Proof. vm_compute. reflexivity. Qed.
(** a failing redirection on a brace group fails only that command: the next one runs *)
Example regress_compound_failure_continues :
  let '(w, _) := run_script false [] [CGroup GBrace [CSimple [] (AEcho [105]%N)] [RDup None true 7];
                                      CSimple [] (AEcho [97]%N)] ex_world ex_tbl in
  nth_error (files w) 2 = Some {| f_exists := true; f_regular := true; f_data := [97; 10]%N |}.
Proof. vm_compute. reflexivity. Qed.
