(** C10 — files, open file descriptions and descriptor tables.

    The "kernel" part (what [open], [write], [read] do to files and open file descriptions)
    is shared by the model of brush and by the POSIX-style specification; it is not brush's
    code.  A descriptor table is a finite map from descriptor numbers to entries, exactly as
    [brush-core/src/openfiles.rs  OpenFiles { files: HashMap<ShellFd, Option<OpenFile>> }]:
      - no binding            = [OpenFileEntry::NotSpecified]
      - binding to [None]     = [OpenFileEntry::NotPresent]
      - binding to [Some d]   = [OpenFileEntry::Open]  ([d] = id of the open file description;
                                cloning an [OpenFile] shares the description: Arc / dup). *)
From BV Require Import Base.Prelude.
Local Open Scope nat_scope.

Record fentry := { f_exists : bool; f_regular : bool; f_data : str }.

(** Open file descriptions.  [d_std = Some k]: this is brush's [OpenFile::Stdin/Stdout/Stderr]
    (the process's own descriptor k), which the code treats specially when spawning. *)
Record desc := { d_file : nat; d_off : nat; d_app : bool; d_r : bool; d_w : bool; d_std : option nat }.

Record world := { files : list fentry; descs : list desc }.

Fixpoint upd {A} (l : list A) (i : nat) (x : A) : list A :=
  match l, i with
  | [], _ => []
  | _ :: l', O => x :: l'
  | y :: l', S i' => y :: upd l' i' x
  end.

Lemma upd_length {A} (l : list A) i x : length (upd l i x) = length l.
Proof. revert i; induction l as [|y l IH]; intros [|i]; cbn; auto. Qed.

Lemma nth_error_upd_same {A} (l : list A) i x : (i < length l)%nat -> nth_error (upd l i x) i = Some x.
Proof. revert i; induction l as [|y l IH]; intros [|i]; cbn; intros H; try lia; auto. apply IH; lia. Qed.

Lemma nth_error_upd_other {A} (l : list A) i j x : i <> j -> nth_error (upd l i x) j = nth_error l j.
Proof. revert i j; induction l as [|y l IH]; intros [|i] [|j]; cbn; intros H; try congruence; auto. Qed.

(** [open(2)] flags as set through Rust's [OpenOptions]. *)
Record oflags := { o_r : bool; o_w : bool; o_app : bool; o_trunc : bool; o_create : bool; o_excl : bool }.

Inductive errno := ENOENT | EEXIST.

Definition new_desc (w : world) (d : desc) : world * nat :=
  ({| files := files w; descs := descs w ++ [d] |}, length (descs w)).

Definition set_file (w : world) (i : nat) (f : fentry) : world :=
  {| files := upd (files w) i f; descs := descs w |}.

(** open: O_EXCL fails on an existing path; without O_CREAT a missing path fails; O_TRUNC empties
    a regular file; the new description starts at offset 0. *)
Definition k_open (w : world) (path : nat) (fl : oflags) : world * (nat + errno) :=
  match nth_error (files w) path with
  | None => (w, inr ENOENT)
  | Some f =>
    if f_exists f && o_excl fl then (w, inr EEXIST)
    else if negb (f_exists f) && negb (o_create fl || o_excl fl) then (w, inr ENOENT)
    else
      let f' := if f_exists f
                then (if o_trunc fl && f_regular f then {| f_exists := true; f_regular := true; f_data := [] |} else f)
                else {| f_exists := true; f_regular := true; f_data := [] |} in
      let w1 := set_file w path f' in
      let '(w2, id) := new_desc w1 {| d_file := path; d_off := O; d_app := o_app fl; d_r := o_r fl;
                                      d_w := o_w fl || o_app fl; d_std := None |} in
      (w2, inl id)
  end.

(** A pipe whose write end is already closed and which holds [content]
    ([interp.rs setup_open_file_with_contents]): an anonymous file read from offset 0. *)
Definition k_pipe_with (w : world) (content : str) : world * nat :=
  let idx := length (files w) in
  let w1 := {| files := files w ++ [{| f_exists := true; f_regular := false; f_data := content |}];
               descs := descs w |} in
  new_desc w1 {| d_file := idx; d_off := O; d_app := false; d_r := true; d_w := false; d_std := None |}.

Fixpoint zeros (n : nat) : str := match n with O => [] | S n' => 0%N :: zeros n' end.

Definition write_at (data : str) (off : nat) (s : str) : str :=
  firstn off data ++ zeros (off - length data) ++ s ++ skipn (off + length s) data.

(** write(2).  Non-regular files of the fixed set are /dev/null-like sinks (pipes made by
    [k_pipe_with] are never writable). *)
Definition k_write (w : world) (id : nat) (s : str) : world * bool :=
  match nth_error (descs w) id with
  | None => (w, false)
  | Some d =>
    if negb (d_w d) then (w, false) else
    match nth_error (files w) (d_file d) with
    | None => (w, false)
    | Some f =>
      if negb (f_regular f) then (w, true) else
      let off := if d_app d then length (f_data f) else d_off d in
      let f' := {| f_exists := f_exists f; f_regular := true; f_data := write_at (f_data f) off s |} in
      let d' := {| d_file := d_file d; d_off := (off + length s)%nat; d_app := d_app d; d_r := d_r d; d_w := d_w d;
                   d_std := d_std d |} in
      ({| files := upd (files w) (d_file d) f'; descs := upd (descs w) id d' |}, true)
    end
  end.

Definition k_read_all (w : world) (id : nat) : world * option str :=
  match nth_error (descs w) id with
  | None => (w, None)
  | Some d =>
    if negb (d_r d) then (w, None) else
    match nth_error (files w) (d_file d) with
    | None => (w, None)
    | Some f =>
      let n := length (f_data f) in
      let d' := {| d_file := d_file d; d_off := Nat.max (d_off d) n; d_app := d_app d; d_r := d_r d; d_w := d_w d;
                   d_std := d_std d |} in
      ({| files := files w; descs := upd (descs w) id d' |}, Some (skipn (d_off d) (f_data f)))
    end
  end.

(** Descriptor tables: finite maps like a HashMap ([tset] leaves one binding per key) *)
Definition entry := option nat.
Definition tbl := list (nat * entry).

Fixpoint tlookup (t : tbl) (n : nat) : option entry :=
  match t with
  | [] => None
  | (k, e) :: t' => if Nat.eqb k n then Some e else tlookup t' n
  end.

Fixpoint tremove (t : tbl) (n : nat) : tbl :=
  match t with
  | [] => []
  | (k, e) :: t' => if Nat.eqb k n then tremove t' n else (k, e) :: tremove t' n
  end.

Definition tset (t : tbl) (n : nat) (e : entry) : tbl := (n, e) :: tremove t n.

Lemma tlookup_tremove t n m : tlookup (tremove t n) m = if Nat.eqb n m then None else tlookup t m.
Proof.
  induction t as [|[k e] t IH]; cbn; [destruct (Nat.eqb n m); reflexivity|].
  destruct (Nat.eqb_spec k n) as [->|Hk]; cbn; rewrite IH; destruct (Nat.eqb_spec n m) as [->|Hm]; try reflexivity.
  apply Nat.eqb_neq in Hk. rewrite Hk. reflexivity.
Qed.

Lemma tlookup_tset t n e m : tlookup (tset t n e) m = if Nat.eqb n m then Some e else tlookup t m.
Proof. unfold tset; cbn. rewrite tlookup_tremove. destruct (Nat.eqb n m); reflexivity. Qed.

(** [ExecutionParameters::try_fd]: the per-command layer first; an unspecified descriptor falls
    back to the shell's persistent table; an explicit NotPresent hides it. *)
Definition try_fd (L P : tbl) (n : nat) : entry :=
  match tlookup L n with
  | Some e => e
  | None => match tlookup P n with Some e => e | None => None end
  end.

(** The flat (POSIX) view of a layered table. *)
Definition view (L P : tbl) : nat -> entry := try_fd L P.
Definition flat_lookup (T : tbl) (n : nat) : entry := match tlookup T n with Some e => e | None => None end.
