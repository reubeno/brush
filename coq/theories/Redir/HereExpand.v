(** C10 — processing of a here-document body whose delimiter is unquoted.

    Model of brush: [expansion.rs WordExpander::basic_expand] in [heredoc_mode] (the "nothing to
    expand" shortcut over a trigger character set, then the pieces of [word.rs heredoc_word]:
    parameter expansion, [heredoc_escape_sequence] = backslash before one of $ ` \ , literal text;
    quotes are literal; a backslash-newline is literal text) for bodies made of text, backslashes,
    [$name] and [${name}].  Command / arithmetic substitution inside bodies is checked
    differentially only.

    Spec (bash manual, Here Documents): "\<newline> is ignored, and \ must be used to quote the
    characters \, $, and `"; parameter expansion is performed; quotes have no special meaning. *)
From BV Require Import Base.Prelude Redir.HereDoc Redir.HereProofs.

Definition DOLLAR : char := 36%N.
Definition BQ : char := 96%N.
Definition LBRACE : char := 123%N.
Definition RBRACE : char := 125%N.

Definition is_name_start (c : char) : bool :=
  ((65 <=? c) && (c <=? 90) || (97 <=? c) && (c <=? 122) || (c =? 95))%N.
Definition is_name_char (c : char) : bool := is_name_start c || is_digit c.

Fixpoint take_name (s : str) : str * str :=
  match s with
  | c :: s' => if is_name_char c then let '(n, r) := take_name s' in (c :: n, r) else ([], s)
  | [] => ([], [])
  end.

Definition env := list (str * str).
Fixpoint lookup (e : env) (n : str) : str :=
  match e with
  | [] => []
  | (k, v) :: e' => if str_eqb k n then v else lookup e' n
  end.

Lemma take_name_length s : (length (snd (take_name s)) <= length s)%nat.
Proof.
  induction s as [|c s IH]; cbn [take_name]; auto.
  destruct (is_name_char c); cbn; auto. destruct (take_name s) as [n r]; cbn in *. lia.
Qed.

(** the character loop; [keep_bsnl]: a backslash-newline stays in the text (brush) or is removed (bash) *)
Fixpoint hexpand (keep_bsnl : bool) (e : env) (fuel : nat) (s : str) : str :=
  match fuel with O => [] | S fuel =>
  match s with
  | [] => []
  | c :: r =>
    if N.eqb c BSL then
      match r with
      | d :: r' =>
          if N.eqb d BSL || N.eqb d DOLLAR || N.eqb d BQ then d :: hexpand keep_bsnl e fuel r'
          else if N.eqb d NL then (if keep_bsnl then [BSL; NL] else []) ++ hexpand keep_bsnl e fuel r'
          else BSL :: hexpand keep_bsnl e fuel r
      | [] => [BSL]
      end
    else if N.eqb c DOLLAR then
      match r with
      | d :: r' =>
          if N.eqb d LBRACE then
            let '(n, r'') := take_name r' in
            match n, r'' with
            | _ :: _, b :: r3 => if N.eqb b RBRACE then lookup e n ++ hexpand keep_bsnl e fuel r3
                                 else DOLLAR :: hexpand keep_bsnl e fuel r
            | _, _ => DOLLAR :: hexpand keep_bsnl e fuel r
            end
          else if is_name_start d then
            let '(n, r'') := take_name r in lookup e n ++ hexpand keep_bsnl e fuel r''
          else DOLLAR :: hexpand keep_bsnl e fuel r
      | [] => [DOLLAR]
      end
    else c :: hexpand keep_bsnl e fuel r
  end end.

(** brush: the shortcut of [basic_expand] — a body without any trigger character is returned as it is *)
Definition code_expand (triggers : list char) (e : env) (body : str) : str :=
  if existsb (fun c => existsb (N.eqb c) triggers) body then hexpand true e (S (length body)) body else body.

(** bash *)
Definition spec_expand (e : env) (body : str) : str := hexpand false e (S (length body)) body.

(** the open deviation class: the body contains a backslash-newline whose backslash is not itself quoted *)
Fixpoint bsnl_go (esc : bool) (s : str) : bool :=
  match s with
  | [] => false
  | c :: r => if esc then (if N.eqb c NL then true else bsnl_go false r)
              else bsnl_go (N.eqb c BSL) r
  end.
Definition has_bsnl (s : str) : bool := bsnl_go false s.

(** what the command reads: tab stripping per line for [<<-], then expansion iff the delimiter
    token has no quoting character *)
Definition doc_lines (strip : bool) (raw : str) : str :=
  let ls := lines_of raw [] in
  (* [raw] ends with a newline: the last element of [lines_of] is the empty remainder *)
  unlines (map (fun l => if strip then drop_tabs l else l) (removelast ls)).

Definition code_doc (triggers : list char) (e : env) (strip : bool) (tok raw : str) : str :=
  let d := doc_lines strip raw in if requires_expansion tok then code_expand triggers e d else d.
Definition spec_doc_text (e : env) (strip : bool) (tok raw : str) : str :=
  let d := doc_lines strip raw in if has_quoting tok then d else spec_expand e d.

Definition heredoc_triggers : list char := [DOLLAR; BQ; BSL].

Lemma hexpand_plain k e tr : In BSL tr -> In DOLLAR tr -> forall fuel s, (length s < fuel)%nat ->
  existsb (fun c => existsb (N.eqb c) tr) s = false -> hexpand k e fuel s = s.
Proof.
  intros Hb Hd. induction fuel as [|fuel IH]; intros s Hl Hn; [lia|].
  destruct s as [|c r]; cbn [hexpand]; auto.
  cbn [existsb] in Hn. apply orb_false_iff in Hn. destruct Hn as [Hc Hr].
  assert (Hx : forall x, In x tr -> N.eqb c x = false).
  { intros x Hx. destruct (N.eqb c x) eqn:E; [|reflexivity]. rewrite <- Hc. symmetry. apply existsb_exists. eauto. }
  rewrite (Hx _ Hb), (Hx _ Hd), IH; auto. cbn in Hl. lia.
Qed.

Theorem shortcut_sound : forall e body,
  existsb (fun c => existsb (N.eqb c) heredoc_triggers) body = false ->
  hexpand true e (S (length body)) body = body.
Proof. intros. apply (hexpand_plain true e heredoc_triggers); cbn; auto. Qed.

Lemma name_char_not_bsl c : is_name_char c = true -> N.eqb c BSL = false.
Proof. intros H. destruct (N.eqb c BSL) eqn:E; auto. apply N.eqb_eq in E. subst. discriminate. Qed.

Lemma bsnl_take_name s : bsnl_go false s = false -> bsnl_go false (snd (take_name s)) = false.
Proof.
  induction s as [|c s IH]; cbn [take_name]; auto. intros H.
  destruct (is_name_char c) eqn:E; [|exact H].
  cbn [bsnl_go] in H. rewrite (name_char_not_bsl c E) in H.
  destruct (take_name s) as [n r]; cbn in *. auto.
Qed.

(** The proof follows the case tree of [hexpand]; what it carries along is that the text still
    to be read has no unquoted backslash-newline - past a name by [bsnl_take_name]. *)
Lemma hexpand_keep_irrelevant e : forall fuel s, bsnl_go false s = false ->
  hexpand true e fuel s = hexpand false e fuel s.
Proof.
  induction fuel as [|fuel IH]; intros s H; auto.
  destruct s as [|c r]; cbn [hexpand]; auto.
  cbn [bsnl_go] in H.
  destruct (N.eqb c BSL) eqn:Ec.
  - destruct r as [|d r']; auto. cbn [bsnl_go] in H.
    destruct (N.eqb d NL) eqn:Ed; [discriminate|].
    destruct (N.eqb d BSL || N.eqb d DOLLAR || N.eqb d BQ) eqn:Eq.
    + rewrite IH; auto.
    + f_equal. apply IH. cbn [bsnl_go].
      apply orb_false_iff in Eq. destruct Eq as [Eq _]. apply orb_false_iff in Eq. destruct Eq as [Eq _].
      rewrite Eq. exact H.
  - destruct (N.eqb c DOLLAR) eqn:Ed.
    + destruct r as [|d r']; auto.
      destruct (N.eqb d LBRACE) eqn:El.
      * assert (Hr' : bsnl_go false r' = false).
        { cbn [bsnl_go] in H. apply N.eqb_eq in El. subst d. exact H. }
        pose proof (bsnl_take_name r' Hr') as Ht.
        destruct (take_name r') as [n r'']; cbn [snd] in Ht.
        destruct n as [|n0 n]; [f_equal; apply IH; exact H|].
        destruct r'' as [|b r3]; [f_equal; apply IH; exact H|].
        destruct (N.eqb b RBRACE) eqn:Eb; [|f_equal; apply IH; exact H].
        f_equal. apply IH. cbn [bsnl_go] in Ht. apply N.eqb_eq in Eb. subst b. exact Ht.
      * destruct (is_name_start d) eqn:En; [|f_equal; apply IH; exact H].
        pose proof (bsnl_take_name (d :: r') H) as Ht.
        destruct (take_name (d :: r')) as [n r'']; cbn [snd] in Ht. f_equal. apply IH. exact Ht.
    + f_equal. apply IH. exact H.
Qed.

(** Outside the open class (an unquoted backslash-newline in the body) brush's processing of an unquoted
    here-document body is bash's: [\\] [\$] [\`] lose the backslash, any other backslash stays, [$name] and
    [${name}] are replaced, quotes are ordinary characters. *)
Theorem heredoc_body_processing_outside_known : forall e body,
  has_bsnl body = false -> code_expand heredoc_triggers e body = spec_expand e body.
Proof.
  intros e body H. unfold code_expand, spec_expand.
  destruct (existsb (fun c => existsb (N.eqb c) heredoc_triggers) body) eqn:E.
  - apply hexpand_keep_irrelevant. exact H.
  - rewrite <- (hexpand_keep_irrelevant e (S (length body)) body H). symmetry. apply shortcut_sound. exact E.
Qed.

Theorem quoted_delimiter_body_verbatim : forall tr e strip tok raw,
  has_quoting tok = true ->
  code_doc tr e strip tok raw = doc_lines strip raw /\ spec_doc_text e strip tok raw = doc_lines strip raw.
Proof.
  intros tr e strip tok raw H. unfold code_doc, spec_doc_text.
  destruct (expansion_iff_unquoted_delimiter tok) as [E _]. rewrite E, H. cbn. auto.
Qed.

(** the backslash rules, and that a shortcut which ignores backslashes would be wrong *)
Example backslash_rules :
  spec_expand [([120]%N, [86]%N)] [92;92; 32; 92;36;120; 32; 92;96; 32; 92;97; 32; 92;34; 32; 36;120; 32; 36;123;120;125; 32; 39;36;120;39]%N
  = [92; 32; 36;120; 32; 96; 32; 92;97; 32; 92;34; 32; 86; 32; 86; 32; 39;86;39]%N.
Proof. vm_compute. reflexivity. Qed.

Example backslash_only_body_is_processed :
  code_expand heredoc_triggers [] [67;58;92;92;100]%N = [67;58;92;100]%N /\
  code_expand [DOLLAR; BQ] [] [67;58;92;92;100]%N <> spec_expand [] [67;58;92;92;100]%N.
Proof. split; [vm_compute; reflexivity|vm_compute; discriminate]. Qed.
