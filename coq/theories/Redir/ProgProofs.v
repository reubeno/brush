(** C10 — program level: brush's layered interpreter and the flat-table specification agree on
    every program that stays outside the listed deviation classes. *)
From BV Require Import Base.Prelude Redir.FdTable Redir.Apply Redir.Spec Redir.Prog Redir.Interp Redir.SpecInterp Redir.Proofs.
Local Open Scope nat_scope.

Lemma any_for a b : any_flag (for_ a b) = false -> any_flag a = false /\ any_flag b = false.
Proof.
  destruct a, b; unfold any_flag, for_; cbn. rewrite !orb_false_iff. tauto.
Qed.

Lemma any_std f : any_flag f = false -> k_std_closed f = false.
Proof. destruct f; unfold any_flag; cbn. rewrite !orb_false_iff. tauto. Qed.

Section Sim.
Variable nc : bool.
Variable m : msgtable.

Lemma put_ext w C C' n s : (forall k, C k = C' k) -> put w C n s = put w C' n s.
Proof. intros H. unfold put. rewrite H. reflexivity. Qed.

Lemma echo_ext w C C' tag : (forall k, C k = C' k) -> echo m w C tag = echo m w C' tag.
Proof. intros H. unfold echo. rewrite H. destruct (C' 1); [destruct (k_write w n (tag ++ [NL])) as [? []]|]; auto using put_ext. Qed.

Lemma open_set_ext w C C' : (forall k, C k = C' k) -> open_set w C = open_set w C'.
Proof. intros H. unfold open_set. apply flat_map_ext. intros k. rewrite H. reflexivity. Qed.

Lemma fold_put_ext C C' (f : nat -> str) : (forall k, C k = C' k) -> forall l w,
  fold_left (fun w n => put w C n (f n)) l w = fold_left (fun w n => put w C' n (f n)) l w.
Proof. intros H. induction l as [|n l IH]; intros w; cbn [fold_left]; auto. rewrite (put_ext w C C' n _ H). apply IH. Qed.

Lemma probe_ext w C C' tag : (forall k, C k = C' k) -> probe w C tag = probe w C' tag.
Proof.
  intros H. unfold probe. rewrite (open_set_ext w C C' H). rewrite (H 0).
  destruct (match C' 0 with Some id => k_read_all w id | None => (w, None) end) as [w1 data].
  destruct data as [s|]; [rewrite (put_ext w1 C C' 1 _ H)|]; apply fold_put_ext, H.
Qed.

Lemma tset_untouched {L n e k ns} : ~ In k ns -> In n ns -> tlookup (tset L n e) k = tlookup L k.
Proof. intros Hk Hn. rewrite tlookup_tset. destruct (Nat.eqb_spec n k); [subst; contradiction|reflexivity]. Qed.

Lemma both_untouched w L p app k : ~ In k [1; 2] ->
  match both_to nc w L p app with inl (_, L') => tlookup L' k = tlookup L k | inr _ => True end.
Proof.
  unfold both_to. intros Hk. destruct (k_open w p _) as [w1 [id|e]]; [|exact I].
  rewrite 2 (tset_untouched Hk) by (cbn; auto). reflexivity.
Qed.

Lemma step_untouched P w L r k : ~ In k (touched1 r) ->
  match setup_redirect nc P w L r with inl (_, L') => tlookup L' k = tlookup L k | inr _ => True end.
Proof.
  destruct r as [n kd p|n out src|n out|p app|n p|n body|n s]; cbn [setup_redirect touched1]; intros Hk.
  - destruct (k_open w p _) as [w1 [id|e]]; [|exact I]. apply (tset_untouched Hk). now left.
  - destruct (Nat.eqb src _); [reflexivity|]. destruct (try_fd L P src); [|exact I].
    apply (tset_untouched Hk). now left.
  - apply (tset_untouched Hk). now left.
  - apply both_untouched, Hk.
  - destruct (Nat.eqb _ 1); [apply both_untouched, Hk|exact I].
  - destruct (k_pipe_with w body) as [w1 id]. apply (tset_untouched Hk). now left.
  - destruct (k_pipe_with w (s ++ [NL])) as [w1 id]. apply (tset_untouched Hk). now left.
Qed.

Lemma apply_untouched P : forall rs w L w' L' e k,
  apply_redirs nc P w L rs = (w', L', e) -> ~ In k (touched rs) -> tlookup L' k = tlookup L k.
Proof.
  induction rs as [|r rs IH]; intros w L w' L' e k H Hk; cbn [apply_redirs] in H.
  - inversion H; auto.
  - unfold touched in Hk. cbn [flat_map] in Hk. rewrite in_app_iff in Hk.
    assert (Hs := step_untouched P w L r k (fun Hi => Hk (or_introl Hi))).
    destruct (setup_redirect nc P w L r) as [[w1 L1]|e1]; [|inversion H; reflexivity].
    rewrite (IH w1 L1 w' L' e k H) by tauto. exact Hs.
Qed.

Lemma apply_redirs_app P a b : forall w L,
  apply_redirs nc P w L (a ++ b) =
  match apply_redirs nc P w L a with (w1, L1, None) => apply_redirs nc P w1 L1 b | r => r end.
Proof.
  induction a as [|r a IH]; intros w L; cbn [app apply_redirs]; [reflexivity|].
  destruct (setup_redirect nc P w L r) as [[w1 L1]|e]; [apply IH|reflexivity].
Qed.

Lemma spec_apply_app a b : forall w T,
  spec_apply nc w T (a ++ b) =
  match spec_apply nc w T a with (w1, T1, None) => spec_apply nc w1 T1 b | r => r end.
Proof.
  induction a as [|r a IH]; intros w T; cbn [app spec_apply]; [reflexivity|].
  destruct (spec_redirect1 nc w T r) as [[w1 T1]|e]; [apply IH|reflexivity].
Qed.

Lemma restore_lookup Ts : forall ns Tn k,
  flat_lookup (restore Ts Tn ns) k = if existsb (Nat.eqb k) ns then flat_lookup Ts k else flat_lookup Tn k.
Proof.
  unfold restore. induction ns as [|n ns IH]; intros Tn k; cbn [fold_left existsb]; auto.
  rewrite IH. destruct (existsb (Nat.eqb k) ns) eqn:E; [rewrite orb_true_r; auto|]. rewrite orb_false_r.
  rewrite (Nat.eqb_sym k n).
  destruct (tlookup Ts n) as [e|] eqn:En; [rewrite flat_tset|rewrite flat_tremove];
    (destruct (Nat.eqb_spec n k) as [->|]; [unfold flat_lookup; rewrite En|]; reflexivity).
Qed.

Lemma agree_restore {P T L T2 L1 rs} :
  agree T L P -> agree T2 L1 P ->
  (forall k, ~ In k (touched rs) -> tlookup L1 k = tlookup L k) ->
  agree (restore T T2 (touched rs)) L P.
Proof.
  intros HA H2 Hu k. rewrite restore_lookup.
  destruct (existsb (Nat.eqb k) (touched rs)) eqn:E.
  - apply HA.
  - rewrite H2. unfold try_fd. rewrite Hu; [reflexivity|]. intros Hin.
    rewrite (proj2 (existsb_exists _ _)) in E; [discriminate|]. exists k. split; [exact Hin|apply Nat.eqb_refl].
Qed.

(** [ctx]: some enclosing construct carries redirections; only then may the layer be non-empty,
    and then (no [exec] inside, by the flags) the persistent table is unchanged. *)
Definition sim {X} (srun : X -> bool -> world -> tbl -> world * tbl * flags)
                   (run : X -> world -> tbl -> tbl -> world * tbl * flow) (x : X) : Prop :=
  forall ctx w P L T ws Ts f,
  agree T L P -> (ctx = false -> L = []) ->
  srun x ctx w T = (ws, Ts, f) -> any_flag f = false ->
  exists Pm, run x w P L = (ws, Pm, FNormal) /\ agree Ts L Pm /\ (ctx = true -> Pm = P).

Definition sim_cmd := sim (srun_cmd nc m) (run_cmd nc m).
Definition sim_list := sim (srun_list nc m) (run_list nc m).

Lemma sim_list_of cs : Forall sim_cmd cs -> sim_list cs.
Proof.
  induction 1 as [|c cs Hc Hcs IH]; intros ctx w P L T ws Ts f HA HL Hs Hf; cbn [srun_list] in Hs.
  - inversion Hs; subst. exists P. cbn [run_list]. auto.
  - destruct (srun_cmd nc m c ctx w T) as [[w1 T1] f1] eqn:E1.
    destruct (srun_list nc m cs ctx w1 T1) as [[w2 T2] f2] eqn:E2. inversion Hs; subst.
    apply any_for in Hf. destruct Hf as [Hf1 Hf2].
    destruct (Hc ctx w P L T w1 T1 f1 HA HL E1 Hf1) as [P1 [R1 [A1 K1]]].
    destruct (IH ctx w1 P1 L T1 ws Ts f2 A1 HL E2 Hf2) as [P2 [R2 [A2 K2]]].
    exists P2. cbn [run_list]. rewrite R1. split; auto. split; auto.
    intros Hc'. rewrite (K2 Hc'). apply K1; auto.
Qed.

(** a failed redirection: the model delivers the specification's diagnostic and skips the command *)
Lemma fail_sim (ctx : bool) {w1 T1 L1 P T L e ws Ts f} :
  agree T L P -> agree T1 L1 P ->
  (let '(w2, f) := spec_diag m w1 T1 e in (w2, T, f)) = (ws, Ts, f) -> any_flag f = false ->
  exists Pm, (let '(w2, f) := simple_redirect_error m w1 L1 P e in (w2, P, f)) = (ws, Pm, FNormal) /\
             agree Ts L Pm /\ (ctx = true -> Pm = P).
Proof.
  intros HA HA1 Hs Hf. unfold spec_diag in Hs. unfold simple_redirect_error.
  destruct (err_kind e) as [kd a]. rewrite <- (HA1 2). exists P.
  destruct (flat_lookup T1 2) as [id|]; [|inversion Hs; subst; discriminate].
  destruct (k_write w1 id (msg m 0 kd a)) as [w' [|]]; inversion Hs; subst; [auto|discriminate].
Qed.

Lemma redirs_sim {rs P w L T w1 T1 e} :
  agree T L P -> spec_apply nc w T rs = (w1, T1, e) ->
  exists L1, apply_redirs nc P w L rs = (w1, L1, e) /\ agree T1 L1 P /\
             forall k, ~ In k (touched rs) -> tlookup L1 k = tlookup L k.
Proof.
  intros HA Hs.
  pose proof (layered_refines_flat rs nc P w L T HA) as HR. rewrite Hs in HR.
  destruct (apply_redirs nc P w L rs) as [[w' L1] e'] eqn:Ea. destruct HR as [-> [-> HA1]].
  exists L1. split; [reflexivity|]. split; [exact HA1|]. intros k. exact (apply_untouched P rs w L w1 L1 e k Ea).
Qed.

Lemma action_sim {w T L P a w2 f} :
  agree T L P -> spec_action m w T a = (w2, f) -> any_flag f = false -> run_action m w L P a = w2.
Proof.
  intros HA Hs Hf. destruct a as [tag|tag]; cbn [spec_action run_action] in *; inversion Hs; subst.
  - apply echo_ext. intros k. symmetry. apply HA.
  - apply probe_ext. intros k. apply any_std in Hf.
    apply child_sees_view_outside_known; auto.
Qed.

Lemma sim_simple rs a : sim_cmd (CSimple rs a).
Proof.
  intros ctx w P L T ws Ts f HA HL Hs Hf. cbn [srun_cmd] in Hs. cbn [run_cmd].
  destruct (spec_apply nc w T rs) as [[w1 T1] e] eqn:Es.
  destruct (redirs_sim HA Es) as (L1 & -> & HA1 & _).
  destruct e as [e|]; [exact (fail_sim ctx HA HA1 Hs Hf)|].
  destruct (spec_action m w1 T1 a) as [w2 f2] eqn:Ed. injection Hs as <- <- <-.
  exists P. rewrite (action_sim HA1 Ed Hf). auto.
Qed.

Lemma sim_exec rs : sim_cmd (CExec rs).
Proof.
  intros ctx w P L T ws Ts f HA HL Hs Hf. cbn [srun_cmd] in Hs. cbn [run_cmd].
  destruct (spec_apply nc w T rs) as [[w1 T1] e] eqn:Es.
  destruct (redirs_sim HA Es) as (L1 & -> & HA1 & _).
  destruct e as [e|]; [exact (fail_sim ctx HA HA1 Hs Hf)|].
  injection Hs as <- <- <-.
  destruct ctx; [discriminate Hf|]. rewrite (HL eq_refl).
  exists (materialize L1 P). split; [reflexivity|]. split; [|discriminate].
  apply agree_materialize, HA1.
Qed.

(** Entering and leaving a construct with redirections [rs]: without any it adds nothing to the
    layer; with some, its body leaves the persistent table alone and the layer outside
    [touched rs] is what it was. *)
Lemma group_frame {rs ctx P w L T w1 L1} :
  agree T L P -> (ctx = false -> L = []) -> apply_redirs nc P w L rs = (w1, L1, None) ->
  (forall k, ~ In k (touched rs) -> tlookup L1 k = tlookup L k) ->
  let ctx' := ctx || match rs with [] => false | _ :: _ => true end in
  (ctx' = false -> L1 = []) /\
  forall T2 P2, agree T2 L1 P2 -> (ctx' = true -> P2 = P) ->
    agree (restore T T2 (touched rs)) L P2 /\ (ctx = true -> P2 = P).
Proof.
  intros HA HL Ea Hu. destruct rs as [|r rs']; cbv zeta.
  - injection Ea as _ <-. rewrite orb_false_r. split; [exact HL|]. intros T2 P2 A2 K2. split; [exact A2|exact K2].
  - rewrite orb_true_r. split; [discriminate|]. intros T2 P2 A2 K2. rewrite (K2 eq_refl) in *.
    split; [exact (agree_restore HA A2 Hu) | reflexivity].
Qed.

Lemma sim_group k body rs : Forall sim_cmd body -> sim_cmd (CGroup k body rs).
Proof.
  intros H ctx w P L T ws Ts f HA HL Hs Hf.
  (* [cbn] exposes the local list recursion of both interpreters: [srun_list], [run_list] *)
  cbn [srun_cmd] in Hs; fold (srun_list nc m) in Hs. cbn [run_cmd]; fold (run_list nc m).
  destruct (spec_apply nc w T rs) as [[w1 T1] e] eqn:Es.
  destruct (redirs_sim HA Es) as (L1 & Ea & HA1 & Hu). rewrite Ea.
  destruct e as [e|]; [exact (fail_sim ctx HA HA1 Hs Hf)|].
  destruct (group_frame HA HL Ea Hu) as [HL1 Hfin].
  set (ctx' := ctx || match rs with [] => false | _ :: _ => true end) in *.
  assert (HB := sim_list_of body H).
  destruct (srun_list nc m body ctx' w1 T1) as [[w2 T2] f2] eqn:E2.
  assert (H1 := HB ctx' w1 P L1 T1 w2 T2 f2 HA1 HL1 E2).
  destruct k.
  - (* brace *)
    injection Hs as <- <- <-. destruct (H1 Hf) as [P2 [R2 [A2 K2]]].
    exists P2. rewrite R2. split; auto.
  - (* subshell *)
    injection Hs as <- <- <-. destruct (H1 Hf) as [P2 [R2 [A2 K2]]].
    exists P. rewrite R2. auto.
  - (* loop: the body twice *)
    destruct (srun_list nc m body ctx' w2 T2) as [[w3 T3] f3] eqn:E3. injection Hs as <- <- <-.
    apply any_for in Hf. destruct Hf as [Hf2 Hf3].
    destruct (H1 Hf2) as [P2 [R2 [A2 K2]]].
    destruct (HB ctx' w2 P2 L1 T2 w3 T3 f3 A2 HL1 E3 Hf3) as [P3 [R3 [A3 K3]]].
    exists P3. rewrite R2, R3. split; auto.
    apply Hfin; auto. intros Hc. rewrite (K3 Hc). apply K2; auto.
Qed.

(** A function call is a brace group carrying the call's redirections followed by the
    definition's; in the model only when the group ends normally (otherwise the two differ in
    who reports the abort). *)
Lemma srun_func_group body drs crs ctx w T :
  srun_cmd nc m (CFunc body drs crs) ctx w T = srun_cmd nc m (CGroup GBrace body (crs ++ drs)) ctx w T.
Proof.
  cbn [srun_cmd]. rewrite spec_apply_app.
  destruct (spec_apply nc w T crs) as [[w1 T1] [e|]]; reflexivity.
Qed.

Lemma run_func_group body drs crs w P L ws Pm :
  run_cmd nc m (CGroup GBrace body (crs ++ drs)) w P L = (ws, Pm, FNormal) ->
  run_cmd nc m (CFunc body drs crs) w P L = (ws, Pm, FNormal).
Proof.
  cbn [run_cmd]; fold (run_list nc m). rewrite apply_redirs_app.
  destruct (apply_redirs nc P w L crs) as [[w1 L1] [e|]]; [auto|].
  destruct (apply_redirs nc P w1 L1 drs) as [[w2 L2] [e|]].
  - destruct (simple_redirect_error m w2 L2 P e) as [w3 [|kd a]]; [auto|discriminate].
  - destruct (run_list nc m body w2 P L2) as [[w3 P3] [|kd a]]; [auto|discriminate].
Qed.

Lemma sim_func body drs crs : Forall sim_cmd body -> sim_cmd (CFunc body drs crs).
Proof.
  intros H ctx w P L T ws Ts f HA HL Hs Hf. rewrite srun_func_group in Hs.
  destruct (sim_group GBrace body (crs ++ drs) H ctx w P L T ws Ts f HA HL Hs Hf) as [Pm [R A]].
  exists Pm. split; [apply run_func_group, R|exact A].
Qed.

Theorem sim_all : forall c, sim_cmd c.
Proof. induction c using cmd_ind2; auto using sim_simple, sim_exec, sim_group, sim_func. Qed.
End Sim.

(** If the specification's run reports none of the listed deviation classes, brush's layered
    interpreter produces the same file system (every file's contents, every open file
    description) and a table whose flat view is the specification's final table. *)
Theorem run_refines_spec_outside_known : forall nc m prog w P ws Ts f,
  srun_script nc m prog w P = (ws, Ts, f) -> any_flag f = false ->
  exists Pm, run_script nc m prog w P = (ws, Pm) /\ forall n, flat_lookup Pm n = flat_lookup Ts n.
Proof.
  intros nc m prog w P ws Ts f Hs Hf. unfold srun_script in Hs.
  assert (HB : sim_list nc m prog) by (apply sim_list_of; apply Forall_forall; intros c _; apply sim_all).
  destruct (HB false w P [] P ws Ts f (agree_nil P) (fun _ => eq_refl) Hs Hf) as [Pm [R [A _]]].
  exists Pm. unfold run_script. rewrite R. split; [reflexivity|]. intros n. symmetry. apply A.
Qed.

(** non-vacuity: a nested program with an exec, inside no deviation class *)
Definition ex_prog : list cmd :=
  [ CGroup GBrace [ CSimple [RDup (Some 2) true 1; RFile None RWrite 4] (AEcho [116]%N);
                    CGroup GSubshell [CSimple [RClose (Some 5) true] (AXProbe [117]%N)] [RHereStr None [104]%N] ]
           [RFile (Some 5) RAppend 4];
    CExec [RFile (Some 3) RWrite 4];
    CFunc [CSimple [] (AXProbe [118]%N)] [RDup (Some 1) true 3] [RFile None RRead 4] ].

Example ex_prog_unflagged : any_flag (snd (srun_script false [] ex_prog ex_world ex_tbl)) = false.
Proof. vm_compute. reflexivity. Qed.
