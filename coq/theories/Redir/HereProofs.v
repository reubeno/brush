(** C10 — the here-document character loop computes the line-based definition. *)
From BV Require Import Base.Prelude Redir.HereDoc.

Definition nonl (s : str) : Prop := Forall (fun c => N.eqb c NL = false) s.

Definition eff (strip : bool) (l : str) : str := if strip then drop_tabs l else l.

Lemma lines_of_acc s : forall acc,
  lines_of s acc = match lines_of s [] with l0 :: ls => (rev acc ++ l0) :: ls | [] => [] end.
Proof.
  induction s as [|c s IH]; intros acc; cbn [lines_of].
  - cbn. rewrite app_nil_r. reflexivity.
  - destruct (N.eqb c NL).
    + cbn. rewrite app_nil_r. reflexivity.
    + rewrite (IH (c :: acc)), (IH [c]). destruct (lines_of s []) as [|l0 ls]; auto.
      cbn [rev app]. rewrite <- app_assoc. reflexivity.
Qed.

Lemma lines_of_nonempty s acc : lines_of s acc <> [].
Proof.
  revert acc; induction s as [|c s IH]; intros acc; cbn [lines_of]; [discriminate|].
  destruct (N.eqb c NL); [discriminate|apply IH].
Qed.

Lemma join_lines_cons l x ls : join_lines (l :: x :: ls) = l ++ NL :: join_lines (x :: ls).
Proof. reflexivity. Qed.

Lemma join_lines_of s : forall acc, join_lines (lines_of s acc) = rev acc ++ s.
Proof.
  induction s as [|c s IH]; intros acc; cbn [lines_of].
  - cbn. rewrite app_nil_r. reflexivity.
  - destruct (N.eqb c NL) eqn:E.
    + apply N.eqb_eq in E; subst c.
      destruct (lines_of s []) as [|x ls] eqn:El; [exfalso; eapply lines_of_nonempty; eauto|].
      rewrite join_lines_cons, <- El, IH. reflexivity.
    + rewrite IH. cbn [rev]. rewrite <- app_assoc. reflexivity.
Qed.

Lemma end_tag_at_app : forall a b r, nonl a -> nonl b -> at_line_start r = true ->
  end_tag_at a (b ++ r) = if str_eqb a b then Some r else None.
Proof.
  unfold end_tag_at, strip_rprefix.
  induction a as [|x a IH]; intros b r Ha Hb Hr.
  - cbn [starts_with length skipn]. destruct b as [|y b]; cbn [app str_eqb].
    + rewrite Hr. reflexivity.
    + inversion Hb as [|? ? Hy _]; subst. cbn [at_line_start]. rewrite Hy. reflexivity.
  - inversion Ha as [|? ? Hx Ha']; subst. destruct b as [|y b]; cbn [app str_eqb].
    + destruct r as [|z r]; cbn [starts_with]; [reflexivity|].
      cbn [at_line_start] in Hr. apply N.eqb_eq in Hr; subst z. rewrite Hx. reflexivity.
    + inversion Hb as [|? ? Hy Hb']; subst. cbn [starts_with length skipn].
      destruct (N.eqb x y) eqn:E; cbn [andb]; [|reflexivity].
      apply IH; auto.
Qed.

Lemma end_tag_cons x a s : end_tag_at (x :: a) (x :: s) = end_tag_at a s.
Proof. unfold end_tag_at, strip_rprefix. cbn [starts_with length skipn]. rewrite N.eqb_refl. reflexivity. Qed.

Lemma nonl_rev s : nonl s -> nonl (rev s).
Proof. unfold nonl. intros H. apply Forall_rev. exact H. Qed.

Lemma str_eqb_rev t rcur : str_eqb (rev t) rcur = str_eqb (rev rcur) t.
Proof. apply eq_true_iff_eq. rewrite !str_eqb_eq. split; intros <-; apply rev_involutive. Qed.

Definition is_nil (s : str) : bool := match s with [] => true | _ => false end.

(** the scan's result from the lines read so far and what [spec_find] says of the rest *)
Definition scan_out (rbody : str) (r : option (list str * list str)) : option (str * str) :=
  match r with Some (b, r) => Some (rev rbody ++ unlines b, join_lines r) | None => None end.

Lemma at_line_start_app rcur rbody : nonl rcur -> at_line_start rbody = true -> at_line_start (rcur ++ rbody) = is_nil rcur.
Proof. intros H Hr. destruct rcur as [|x r]; cbn; auto. inversion H; subst; auto. Qed.

Lemma is_nil_rev s : is_nil (rev s) = is_nil s.
Proof. destruct s as [|x s]; cbn; auto. destruct (rev s); reflexivity. Qed.

(** under [<<-] leading tabs of the line being read were skipped, not kept *)
Definition detabbed (strip : bool) (cur : str) : Prop :=
  strip = true -> match cur with c :: _ => N.eqb c TAB = false | [] => True end.

Lemma detabbed_eff {strip cur} : detabbed strip cur -> eff strip cur = cur.
Proof.
  unfold eff. destruct strip; [|reflexivity]. intros H. specialize (H eq_refl).
  destruct cur; cbn; [reflexivity | rewrite H; reflexivity].
Qed.

Lemma detabbed_snoc strip cur c :
  detabbed strip cur -> (strip && is_nil cur && N.eqb c TAB = false) -> detabbed strip (cur ++ [c]).
Proof.
  intros H Hc ->. specialize (H eq_refl). destruct cur as [|c0 cur]; [exact Hc | exact H].
Qed.

Lemma spec_find_last t strip l :
  spec_find t strip [l] = if str_eqb (eff strip l) t then Some ([], []) else None.
Proof. reflexivity. Qed.

Lemma spec_find_cons t strip l x ls :
  spec_find t strip (l :: x :: ls) =
  if str_eqb (eff strip l) t then Some ([], x :: ls)
  else match spec_find t strip (x :: ls) with Some (b, r) => Some (eff strip l :: b, r) | None => None end.
Proof. reflexivity. Qed.

Lemma spec_find_tab t inp : spec_find t true (lines_of inp [TAB]) = spec_find t true (lines_of inp []).
Proof.
  rewrite lines_of_acc. destruct (lines_of inp []) as [|l0 ls]; [reflexivity|].
  cbn [rev app spec_find drop_tabs]. rewrite N.eqb_refl. reflexivity.
Qed.

(** [rcur] is the line being read, reversed; [rbody] the lines read before it, reversed; the
    first line of the rest of the input continues [rcur]. *)
Lemma scan_gen : forall inp t strip rcur rbody,
  nonl t -> nonl rcur -> at_line_start rbody = true -> detabbed strip (rev rcur) ->
  scan t strip (rcur ++ rbody) inp = scan_out rbody (spec_find t strip (lines_of inp rcur)).
Proof.
  induction inp as [|c inp IH]; intros t strip rcur rbody Ht Hc Hr Hd.
  - (* end of input *)
    cbn [scan lines_of]. rewrite spec_find_last, (detabbed_eff Hd), end_tag_at_app, str_eqb_rev; auto using nonl_rev.
    destruct (str_eqb (rev rcur) t); cbn; [rewrite app_nil_r|]; reflexivity.
  - cbn [scan]. rewrite at_line_start_app; auto.
    destruct (strip && is_nil rcur && N.eqb c TAB) eqn:Etab.
    + (* a leading tab is skipped *)
      destruct strip; [|discriminate]. destruct rcur; [|discriminate]. apply N.eqb_eq in Etab; subst c.
      rewrite (IH t true [] rbody Ht Hc Hr Hd). cbn [lines_of N.eqb TAB NL Pos.eqb]. rewrite spec_find_tab. reflexivity.
    + destruct (N.eqb c NL) eqn:Enl.
      * (* newline: the end-tag test *)
        apply N.eqb_eq in Enl; subst c.
        rewrite end_tag_cons, end_tag_at_app, str_eqb_rev; auto using nonl_rev.
        cbn [lines_of]. rewrite N.eqb_refl.
        destruct (lines_of inp []) as [|l0 ls] eqn:El; [exfalso; eapply lines_of_nonempty; eauto|].
        rewrite spec_find_cons, (detabbed_eff Hd).
        destruct (str_eqb (rev rcur) t) eqn:Eq.
        -- cbn [scan_out unlines]. rewrite app_nil_r, <- El, join_lines_of. reflexivity.
        -- change (NL :: rcur ++ rbody) with ([] ++ (NL :: rcur ++ rbody)).
           rewrite (IH t strip [] (NL :: rcur ++ rbody) Ht (Forall_nil _) eq_refl (fun _ => I)), El.
           destruct (spec_find t strip (l0 :: ls)) as [[b r]|]; cbn [scan_out]; [|reflexivity].
           cbn [rev unlines]. rewrite rev_app_distr. rewrite <- !app_assoc. cbn [app]. reflexivity.
      * (* any other character joins the current line *)
        change (c :: rcur ++ rbody) with ((c :: rcur) ++ rbody).
        rewrite (IH t strip (c :: rcur) rbody Ht (Forall_cons _ Enl Hc) Hr).
        -- cbn [lines_of]. rewrite Enl. reflexivity.
        -- apply detabbed_snoc; [exact Hd|]. rewrite is_nil_rev. exact Etab.
Qed.

(** The tokenizer's character loop returns the lines up to the first line equal to the delimiter
    (leading tabs removed when [<<-]) and leaves the text after that line; it fails exactly when
    no such line exists. *)
Theorem heredoc_scan_spec : forall t strip inp, nonl t ->
  scan t strip [] inp = spec_doc t strip inp.
Proof.
  intros t strip inp Ht. exact (scan_gen inp t strip [] [] Ht (Forall_nil _) eq_refl (fun _ => I)).
Qed.

Theorem scan_all_spec : forall tags inp,
  Forall (fun p => nonl (tag_of_token (snd p))) tags -> scan_all tags inp = spec_all tags inp.
Proof.
  induction tags as [|[strip tok] tags IH]; intros inp H; cbn [scan_all spec_all]; auto.
  inversion H as [|? ? H1 H2]; subst. cbn [snd] in H1.
  rewrite heredoc_scan_spec by exact H1.
  destruct (spec_doc (tag_of_token tok) strip inp) as [[body rest]|]; auto.
  rewrite IH by exact H2. reflexivity.
Qed.

Lemma lines_of_line l s : nonl l -> forall acc, lines_of (l ++ NL :: s) acc = (rev acc ++ l) :: lines_of s [].
Proof.
  unfold nonl. induction 1 as [|c l Hc _ IH]; intros acc; cbn [app lines_of].
  - rewrite N.eqb_refl, app_nil_r. reflexivity.
  - rewrite Hc, IH. cbn [rev]. rewrite <- app_assoc. reflexivity.
Qed.

Lemma lines_of_unlines : forall ls s, Forall nonl ls ->
  lines_of (unlines ls ++ s) [] = ls ++ lines_of s [].
Proof.
  induction ls as [|l ls IH]; intros s H; cbn [unlines app]; auto.
  inversion H as [|? ? Hl Hls]; subst.
  rewrite <- app_assoc. cbn [app]. rewrite lines_of_line by assumption. cbn [rev app].
  rewrite IH by assumption. reflexivity.
Qed.

Lemma spec_find_skip t strip : forall ls more,
  Forall (fun l => str_eqb (eff strip l) t = false) ls -> more <> [] ->
  spec_find t strip (ls ++ more) =
  match spec_find t strip more with Some (b, r) => Some (map (eff strip) ls ++ b, r) | None => None end.
Proof.
  induction ls as [|l ls IH]; intros more H Hm; cbn [app map].
  - destruct (spec_find t strip more) as [[b r]|]; reflexivity.
  - inversion H as [|? ? Hl Hls]; subst. cbn [spec_find]. fold (eff strip l). rewrite Hl.
    destruct (ls ++ more) as [|x xs] eqn:E; [destruct ls; cbn in E; congruence|].
    rewrite <- E. rewrite IH by assumption. destruct (spec_find t strip more) as [[b r]|]; reflexivity.
Qed.

Lemma unlines_app a b : unlines (a ++ b) = unlines a ++ unlines b.
Proof. induction a as [|l a IH]; cbn [app unlines]; auto. rewrite IH. rewrite <- app_assoc. reflexivity. Qed.

Theorem heredoc_body_exact : forall t strip body tline rest,
  nonl t -> Forall nonl body -> nonl tline -> eff strip tline = t ->
  Forall (fun l => str_eqb (eff strip l) t = false) body ->
  scan t strip [] (unlines body ++ tline ++ NL :: rest) = Some (unlines (map (eff strip) body), rest).
Proof.
  intros t strip body tline rest Ht Hb Htl He Hne.
  rewrite heredoc_scan_spec by exact Ht. unfold spec_doc.
  rewrite lines_of_unlines by exact Hb.
  rewrite lines_of_line by exact Htl. cbn [rev app].
  rewrite spec_find_skip; [|exact Hne|discriminate].
  cbn [spec_find]. fold (eff strip tline). rewrite He, str_eqb_refl.
  rewrite app_nil_r. rewrite join_lines_of. reflexivity.
Qed.

(** Two here-documents whose operators stand on one line: the bodies follow each other. *)
Theorem two_docs_one_line : forall s1 tok1 s2 tok2 b1 l1 b2 l2 rest,
  let t1 := tag_of_token tok1 in let t2 := tag_of_token tok2 in
  nonl t1 -> nonl t2 -> Forall nonl b1 -> Forall nonl b2 -> nonl l1 -> nonl l2 ->
  eff s1 l1 = t1 -> eff s2 l2 = t2 ->
  Forall (fun l => str_eqb (eff s1 l) t1 = false) b1 ->
  Forall (fun l => str_eqb (eff s2 l) t2 = false) b2 ->
  scan_all [(s1, tok1); (s2, tok2)] (unlines b1 ++ l1 ++ NL :: unlines b2 ++ l2 ++ NL :: rest)
  = Some ([unlines (map (eff s1) b1); unlines (map (eff s2) b2)], rest).
Proof.
  intros s1 tok1 s2 tok2 b1 l1 b2 l2 rest t1 t2 H1 H2 Hb1 Hb2 Hl1 Hl2 He1 He2 Hn1 Hn2.
  cbn [scan_all]. fold t1 t2.
  rewrite (heredoc_body_exact t1 s1 b1 l1 (unlines b2 ++ l2 ++ NL :: rest)) by assumption.
  rewrite (heredoc_body_exact t2 s2 b2 l2 rest) by assumption. reflexivity.
Qed.

Lemma unquote_plain s : has_quoting s = false -> unquote_str s = s.
Proof.
  unfold unquote_str, has_quoting. induction s as [|c s IH]; cbn [existsb unquote_go]; auto.
  intros H. apply orb_false_iff in H. destruct H as [Hc Hs].
  assert (N.eqb c BSL = false) as -> by (unfold is_quoting_char in Hc; repeat (apply orb_false_iff in Hc; destruct Hc as [Hc ?]); assumption).
  rewrite Hc. rewrite IH by assumption. reflexivity.
Qed.

(** expansion is governed by the delimiter's form only *)
Theorem expansion_iff_unquoted_delimiter : forall tok,
  (requires_expansion tok = negb (has_quoting tok)) /\
  (requires_expansion tok = true -> tag_of_token tok = tok /\ unquote_str tok = tok).
Proof.
  intros tok.
  assert (E : requires_expansion tok = negb (has_quoting tok)).
  { unfold requires_expansion, has_quoting. f_equal. induction tok as [|c tok IH]; cbn [existsb]; auto.
    rewrite IH. f_equal. unfold is_quoting_char. destruct (N.eqb c SQ), (N.eqb c DQ), (N.eqb c BSL); reflexivity. }
  split; auto. intros H. rewrite E in H. apply negb_true_iff in H.
  unfold tag_of_token. rewrite H. split; auto. apply unquote_plain; auto.
Qed.

(** the scan never looks at how the delimiter was quoted *)
Theorem body_independent_of_quoting : forall tags tags' inp,
  map (fun p => (fst p, tag_of_token (snd p))) tags = map (fun p => (fst p, tag_of_token (snd p))) tags' ->
  scan_all tags inp = scan_all tags' inp.
Proof.
  induction tags as [|[s tok] tags IH]; intros [|[s' tok'] tags'] inp H; cbn in H; try discriminate; auto.
  inversion H; subst. cbn [scan_all]. rewrite H2.
  destruct (scan (tag_of_token tok') s' [] inp) as [[body rest]|]; auto. rewrite (IH tags' rest) by assumption. reflexivity.
Qed.

(** non-vacuity: a tab-stripped document with delimiter-like lines inside *)
Example heredoc_example :
  scan [69;79;70]%N true [] ([9;69;79;70;88;10; 32;69;79;70;10; 9;9;120;10; 9;69;79;70;10; 114]%N)
  = Some ([69;79;70;88;10; 32;69;79;70;10; 120;10]%N, [114]%N).
Proof. vm_compute. reflexivity. Qed.
