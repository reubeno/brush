(** C06 — the removal loops against the bash-independent clause of the property. *)
From BV Require Import Base.Prelude ParamExp.Remove.

Fixpoint find_up (P : nat -> bool) (iters idx : nat) : option nat :=
  match iters with
  | O => None
  | S i => if P idx then Some idx else find_up P i (S idx)
  end.
(** searches k-1, k-2, …, 0 *)
Fixpoint find_down (P : nat -> bool) (k : nat) : option nat :=
  match k with
  | O => None
  | S j => if P j then Some j else find_down P j
  end.

(** When the admissible cuts are the [k] of the searched range with [P k], the upward search
    yields the least admissible cut and the downward search the greatest. *)
Lemma find_up_least (ok : nat -> Prop) cut s P n : forall idx,
  (forall k, ok k <-> (idx <= k < idx + n)%nat /\ P k = true) ->
  removal_spec ok true cut s (match find_up P n idx with Some j => cut j | None => s end).
Proof.
  induction n as [|n IH]; intros idx Hok; cbn [find_up].
  - apply removal_none. intros k Hk. apply Hok in Hk. lia.
  - destruct (P idx) eqn:E.
    + apply removal_at; [apply Hok; split; [lia|exact E]|]. intros j Hj. apply Hok in Hj. lia.
    + apply IH. intros k. rewrite Hok. split; intros [Hk Hp]; (split; [|exact Hp]); [|lia].
      destruct (Nat.eq_dec k idx) as [->|]; [congruence|lia].
Qed.

Lemma find_down_greatest (ok : nat -> Prop) cut s P n :
  (forall k, ok k <-> (k < n)%nat /\ P k = true) ->
  removal_spec ok false cut s (match find_down P n with Some j => cut j | None => s end).
Proof.
  induction n as [|n IH]; intros Hok; cbn [find_down].
  - apply removal_none. intros k Hk. apply Hok in Hk. lia.
  - destruct (P n) eqn:E.
    + apply removal_at; [apply Hok; split; [lia|exact E]|]. intros j Hj. apply Hok in Hj. lia.
    + apply IH. intros k. rewrite Hok. split; intros [Hk Hp]; (split; [|exact Hp]); [|lia].
      destruct (Nat.eq_dec k n) as [->|]; [congruence|lia].
Qed.

Lemma removal_spec_functional ok b cut s r1 r2 :
  removal_spec ok b cut s r1 -> removal_spec ok b cut s r2 -> r1 = r2.
Proof.
  intros [Hn1|k1 Hk1 Hm1] [Hn2|k2 Hk2 Hm2]; try reflexivity.
  - exfalso; exact (Hn1 _ Hk2).
  - exfalso; exact (Hn2 _ Hk1).
  - f_equal. specialize (Hm1 _ Hk2). specialize (Hm2 _ Hk1). destruct b; lia.
Qed.

Lemma find_seq_up P n : find P (seq 0 n) = find_up P n 0.
Proof.
  generalize 0%nat. induction n as [|n IH]; intros a; [reflexivity|]. cbn.
  destruct (P a); [reflexivity|apply IH].
Qed.

Lemma find_app {A} (P : A -> bool) l1 l2 :
  find P (l1 ++ l2) = match find P l1 with Some x => Some x | None => find P l2 end.
Proof. induction l1 as [|x l1 IH]; cbn; [reflexivity|]. destruct (P x); [reflexivity|exact IH]. Qed.

Lemma find_rev_seq_down P n : find P (rev (seq 0 n)) = find_down P n.
Proof.
  induction n as [|n IH]; [reflexivity|].
  rewrite seq_S, rev_app_distr. cbn [rev app find find_down Nat.add]. destruct (P n); [reflexivity|exact IH].
Qed.

Lemma cut_below (Q : Prop) k n : (k <= n)%nat /\ Q <-> (k < S n)%nat /\ Q.
Proof. rewrite Nat.lt_succ_r. reflexivity. Qed.

Lemma cut_from_0 (Q : Prop) k n : (k <= n)%nat /\ Q <-> (0 <= k < 0 + S n)%nat /\ Q.
Proof. split; intros [H HQ]; (split; [lia|exact HQ]). Qed.

Theorem spec_remove_prefix_sound shortest m s :
  removal_spec (prefix_ok m s) shortest (fun k => skipn k s) s (spec_remove_prefix shortest m s).
Proof.
  unfold spec_remove_prefix, cuts. destruct shortest.
  - rewrite find_seq_up. apply find_up_least. intros k. apply cut_from_0.
  - rewrite find_rev_seq_down. apply find_down_greatest. intros k. apply cut_below.
Qed.

Theorem spec_remove_suffix_sound shortest m s :
  removal_spec (suffix_ok m s) (negb shortest) (fun k => firstn k s) s (spec_remove_suffix shortest m s).
Proof.
  unfold spec_remove_suffix, cuts. destruct shortest; cbn [negb].
  - rewrite find_rev_seq_down. apply find_down_greatest. intros k. apply cut_below.
  - rewrite find_seq_up. apply find_up_least. intros k. apply cut_from_0.
Qed.

Section Loops.
Variable m : str -> bool.
Let Pp (s : str) := fun k => m (firstn k s).
Let Ps (s : str) := fun k => m (skipn k s).

(** The loop never tests the empty prefix; the search may, since deleting it is the identity,
    which is also the no-match result. *)
Lemma largest_prefix_go_find s k :
  largest_prefix_go m s k =
  match find_down (Pp s) (S k) with Some j => skipn j s | None => s end.
Proof.
  induction k as [|k IH]; [cbn; destruct (Pp s 0); reflexivity|].
  cbn [largest_prefix_go]. rewrite IH.
  change (find_down (Pp s) (S (S k))) with (if m (firstn (S k) s) then Some (S k) else find_down (Pp s) (S k)).
  destruct (m (firstn (S k) s)); reflexivity.
Qed.

Lemma smallest_prefix_go_old_find s iters : forall c,
  smallest_prefix_go_old m s iters c =
  match find_up (Pp s) iters (S c) with Some j => skipn j s | None => s end.
Proof.
  induction iters as [|it IH]; intros c; [reflexivity|]. cbn [smallest_prefix_go_old find_up]. unfold Pp at 1.
  destruct (m (firstn (S c) s)); [reflexivity|apply IH].
Qed.

Lemma smallest_prefix_go_find s iters : forall idx,
  smallest_prefix_go m s iters idx =
  match find_up (Pp s) iters idx with Some j => skipn j s | None => s end.
Proof.
  induction iters as [|it IH]; intros idx; [reflexivity|]. cbn [smallest_prefix_go find_up]. unfold Pp at 1.
  destruct (m (firstn idx s)); [reflexivity|apply IH].
Qed.

(** Likewise the empty suffix, the cut after the last iteration, is never tested. *)
Lemma largest_suffix_go_find s iters : forall idx, (idx + iters = length s)%nat ->
  largest_suffix_go m s iters idx =
  match find_up (Ps s) (S iters) idx with Some j => firstn j s | None => s end.
Proof.
  induction iters as [|it IH]; intros idx H.
  - rewrite Nat.add_0_r in H. subst idx. cbn. destruct (Ps s (length s)); [symmetry; apply firstn_all|reflexivity].
  - cbn [largest_suffix_go]. rewrite IH by lia.
    change (find_up (Ps s) (S (S it)) idx) with (if m (skipn idx s) then Some idx else find_up (Ps s) (S it) (S idx)).
    destruct (m (skipn idx s)); reflexivity.
Qed.

Lemma smallest_suffix_go_find s k :
  smallest_suffix_go m s k =
  match find_down (Ps s) k with Some j => firstn j s | None => s end.
Proof.
  induction k as [|k IH]; [reflexivity|]. cbn [smallest_suffix_go find_down]. unfold Ps at 1.
  destruct (m (skipn k s)); [reflexivity|exact IH].
Qed.

(** The suffix loop differs from its repair only in the range searched: the bodies are the same. *)
Lemma smallest_suffix_go_old_eq s k : smallest_suffix_go_old m s k = smallest_suffix_go m s k.
Proof. reflexivity. Qed.

Theorem remove_largest_prefix_eq s : remove_largest_prefix m s = spec_remove_prefix false m s.
Proof.
  unfold remove_largest_prefix, spec_remove_prefix, cuts.
  rewrite largest_prefix_go_find, find_rev_seq_down. reflexivity.
Qed.

Theorem remove_largest_suffix_eq s : remove_largest_suffix m s = spec_remove_suffix false m s.
Proof.
  unfold remove_largest_suffix, spec_remove_suffix, cuts.
  rewrite largest_suffix_go_find, find_seq_up by reflexivity. reflexivity.
Qed.

Theorem remove_smallest_prefix_eq s : remove_smallest_prefix m s = spec_remove_prefix true m s.
Proof.
  unfold remove_smallest_prefix, spec_remove_prefix, cuts.
  rewrite smallest_prefix_go_find, find_seq_up. reflexivity.
Qed.

Theorem remove_smallest_suffix_eq s : remove_smallest_suffix m s = spec_remove_suffix true m s.
Proof.
  unfold remove_smallest_suffix, spec_remove_suffix, cuts.
  rewrite smallest_suffix_go_find, find_rev_seq_down. reflexivity.
Qed.

(** The loops before the repair skip exactly the empty prefix/suffix: harmless when the pattern
    does not match the empty string. *)
Theorem remove_smallest_prefix_old_eq s : m [] = false ->
  remove_smallest_prefix_old m s = spec_remove_prefix true m s.
Proof.
  intros E0. unfold remove_smallest_prefix_old, spec_remove_prefix, cuts.
  rewrite smallest_prefix_go_old_find, find_seq_up. cbn [find_up firstn]. rewrite E0. reflexivity.
Qed.

Theorem remove_smallest_suffix_old_eq s : m [] = false ->
  remove_smallest_suffix_old m s = spec_remove_suffix true m s.
Proof.
  intros E0. unfold remove_smallest_suffix_old, spec_remove_suffix, cuts.
  rewrite smallest_suffix_go_old_eq, smallest_suffix_go_find, find_rev_seq_down. cbn [find_down]. rewrite skipn_all, E0. reflexivity.
Qed.

End Loops.

(** [##] and [%%] *)
Theorem remove_largest_prefix_spec m s : largest_prefix_spec m s (remove_largest_prefix m s).
Proof. rewrite remove_largest_prefix_eq. apply spec_remove_prefix_sound. Qed.

Theorem remove_largest_suffix_spec m s : largest_suffix_spec m s (remove_largest_suffix m s).
Proof. rewrite remove_largest_suffix_eq. apply (spec_remove_suffix_sound false). Qed.

(** [#] and [%] after the repair *)
Theorem remove_smallest_prefix_spec m s : smallest_prefix_spec m s (remove_smallest_prefix m s).
Proof. rewrite remove_smallest_prefix_eq. apply spec_remove_prefix_sound. Qed.

Theorem remove_smallest_suffix_spec m s : smallest_suffix_spec m s (remove_smallest_suffix m s).
Proof. rewrite remove_smallest_suffix_eq. apply (spec_remove_suffix_sound true). Qed.

(** [#] and [%] before the repair: the class of the finding is [m [] = true] *)
Theorem remove_smallest_prefix_old_spec m s : m [] = false ->
  smallest_prefix_spec m s (remove_smallest_prefix_old m s).
Proof. intros E0. rewrite remove_smallest_prefix_old_eq by exact E0. apply spec_remove_prefix_sound. Qed.

Theorem remove_smallest_suffix_old_spec m s : m [] = false ->
  smallest_suffix_spec m s (remove_smallest_suffix_old m s).
Proof. intros E0. rewrite remove_smallest_suffix_old_eq by exact E0. apply (spec_remove_suffix_sound true). Qed.

(** * The old loops are refuted inside the class: the matcher of the pattern [*]
    (everything matches) on "abc".  [${x#*}] must be "abc"; the loop returns "bc". *)
Definition m_star : str -> bool := fun _ => true.
Definition abc : str := [97; 98; 99]%N.

Theorem remove_smallest_prefix_old_refuted :
  exists m s, ~ smallest_prefix_spec m s (remove_smallest_prefix_old m s).
Proof.
  exists m_star, abc. intros H.
  assert (E : remove_smallest_prefix_old m_star abc = spec_remove_prefix true m_star abc).
  { eapply removal_spec_functional; [exact H|apply spec_remove_prefix_sound]. }
  vm_compute in E. discriminate.
Qed.

Theorem remove_smallest_suffix_old_refuted :
  exists m s, ~ smallest_suffix_spec m s (remove_smallest_suffix_old m s).
Proof.
  exists m_star, abc. intros H.
  assert (E : remove_smallest_suffix_old m_star abc = spec_remove_suffix true m_star abc).
  { eapply removal_spec_functional; [exact H|apply (spec_remove_suffix_sound true)]. }
  vm_compute in E. discriminate.
Qed.
