(** C06 — operator recognition order of the parameter grammar (regenerated table
    gen/C06ParamOps.v): rust-peg's ordered choice takes the first alternative that matches, so
    no operator literal may be tried before a longer literal it is a proper prefix of
    ([%] before [%%] would parse [${x%%p}] as [%] with pattern [%p]; the [:] of a substring
    before [:-] would parse [${x:-w}] as a substring with offset [-w]). *)
From Coq Require Import String.
From BV Require Import Base.Prelude Base.Codec gen.C06ParamOps.

Definition proper_prefix (a b : str) : bool := starts_with a b && negb (str_eqb a b).

Fixpoint longest_first (l : list str) : bool :=
  match l with
  | [] => true
  | a :: l' => forallb (fun b => negb (proper_prefix a b)) l' && longest_first l'
  end.

Lemma longest_first_spec l : longest_first l = true ->
  forall i j a b, (i < j)%nat -> nth_error l i = Some a -> nth_error l j = Some b -> proper_prefix a b = false.
Proof.
  induction l as [|x l IH]; intros H i j a b Hij Ha Hb; [destruct i; discriminate|].
  cbn in H. apply andb_prop in H as [H1 H2].
  destruct i as [|i], j as [|j]; try lia; cbn in Ha, Hb.
  - inversion Ha; subst x. rewrite forallb_forall in H1.
    apply nth_error_In in Hb. specialize (H1 _ Hb). destruct (proper_prefix a b); [discriminate|reflexivity].
  - apply (IH H2 i j a b); [lia|assumption|assumption].
Qed.

Theorem ops_longest_first : forall i j a b, (i < j)%nat ->
  nth_error param_ops i = Some a -> nth_error param_ops j = Some b -> proper_prefix a b = false.
Proof. apply longest_first_spec. vm_compute. reflexivity. Qed.

Definition modelled_ops : list str :=
  [lit ":-"; lit "-"; lit ":="; lit "="; lit ":?"; lit "?"; lit ":+"; lit "+";
   lit "%%"; lit "%"; lit "##"; lit "#"; lit ":"].
Theorem modelled_ops_recognised : forallb (fun o => existsb (str_eqb o) param_ops) modelled_ops = true.
Proof. vm_compute. reflexivity. Qed.
