(** C06 — the operator arms against the specification of ParamSpec.v. *)
From BV Require Import Base.Prelude ParamExp.Remove ParamExp.RemoveProofs ParamExp.Param ParamExp.ParamSpec.

(** the words handed to the command by ["${…}"] *)
Definition obs (r : res expansion) : res (list str * option str) :=
  match r with Ok e => Ok (dq_args e, None) | Fail => Fail | Panic => Panic end.
Definition obs2 (r : res (expansion * option str)) : res (list str * option str) :=
  match r with Ok (e, a) => Ok (dq_args e, a) | Fail => Fail | Panic => Panic end.

Definition is_list (r : pref) : bool := match r with RAll _ | RArgs _ => true | _ => false end.
Definition conc_of (r : pref) : bool := match r with RAll c | RArgs c => c | _ => true end.

Definition elems_of (sh : shell) (r : pref) : list str :=
  match r with RArgs _ => args sh | _ => elems (var sh) end.
Definition list_exp (r : pref) (ws : list str) : expansion :=
  {| fields := ws; concatenate := conc_of r; from_array := true; undefined := false |}.

Lemma expand_list sh r au : is_list r = true -> expand_parameter sh r au = Ok (list_exp r (elems_of sh r)).
Proof. destruct r; try discriminate; reflexivity. Qed.

Lemma words_list sh r : is_list r = true ->
  words sh r = if is_nil (elems_of sh r) then None else Some (elems_of sh r).
Proof. destruct r; try discriminate; intros _; cbn; destruct (_ : list str); reflexivity. Qed.

Lemma expand_scalar sh r au : is_list r = false ->
  expand_parameter sh r au =
  match words sh r with
  | Some l => Ok (of_string (join_with SP l))
  | None => undefined_expansion sh au
  end.
Proof.
  destruct r as [|i| |n|]; try discriminate; intros _; cbn.
  - destruct (var sh) as [| |s|l|l]; cbn; try reflexivity.
    + destruct (idx_get 0 l); reflexivity.
    + destruct (assoc_get zero_str l); reflexivity.
  - destruct (get_at (var sh) i); reflexivity.
  - destruct (nth_error (args sh) (n - 1)); reflexivity.
Qed.

Lemma words_scalar_single sh r l : is_list r = false -> words sh r = Some l -> exists a, l = [a].
Proof.
  destruct r as [|i| |n|]; try discriminate; intros _; cbn.
  - destruct (get_at _ _); intros H; inversion H; eauto.
  - destruct (get_at _ _); intros H; inversion H; eauto.
  - destruct (nth_error _ _); intros H; inversion H; eauto.
Qed.
Arguments words_scalar_single {sh r l}.

(** The words the substring operators slice: the elements, with [$0] in front for [$@]; the local
    [ws] of [substring_spec]. *)
Definition list_words (sh : shell) (r : pref) : list str :=
  match r with RArgs _ => shell_name sh :: args sh | _ => elems (var sh) end.

Lemma with_name_elems sh r :
  with_shell_name sh r (list_exp r (elems_of sh r)) = list_exp r (list_words sh r).
Proof. destruct r; reflexivity. Qed.

Lemma scalar_shape r : is_list r = false -> shape_of r = Scalar.
Proof. destruct r; try discriminate; reflexivity. Qed.

Lemma scalar_not_args r : is_list r = false -> is_args r = false.
Proof. destruct r; try discriminate; reflexivity. Qed.

Lemma with_name_scalar sh r e : is_list r = false -> with_shell_name sh r e = e.
Proof. intros H. unfold with_shell_name. rewrite (scalar_not_args r H). reflexivity. Qed.

Lemma list_not_scalar r : is_list r = true -> shape_of r <> Scalar.
Proof. destruct r as [| |c| |c]; try discriminate; destruct c; discriminate. Qed.

Lemma match_shape_list r : is_list r = true ->
  forall A (x y : A), match shape_of r with Scalar => x | _ => y end = y.
Proof. intros H A x y. destruct (shape_of r) eqn:E; [destruct (list_not_scalar r H E)|reflexivity|reflexivity]. Qed.

(** What the operators see of a parameter: a list of words, one word, or nothing. *)
Inductive pview (sh : shell) (r : pref) : Prop :=
| PV_list (Hl : is_list r = true)
| PV_word w (Hl : is_list r = false) (W : words sh r = Some [w])
    (He : forall au, expand_parameter sh r au = Ok (of_string w))
| PV_unset (Hl : is_list r = false) (W : words sh r = None)
    (He : forall au, expand_parameter sh r au = undefined_expansion sh au).

Lemma param_view sh r : pview sh r.
Proof.
  destruct (is_list r) eqn:Hl; [apply PV_list, Hl|].
  destruct (words sh r) as [l|] eqn:W.
  - destruct (words_scalar_single Hl W) as [w ->]. apply PV_word with w; [exact Hl|exact W|].
    intros au. rewrite expand_scalar, W by exact Hl. reflexivity.
  - apply PV_unset; [exact Hl|exact W|]. intros au. rewrite expand_scalar, W by exact Hl. reflexivity.
Qed.

Lemma dq_conc r e : concatenate e = conc_of r -> dq_args e = render (shape_of r) (fields e).
Proof. unfold dq_args. intros ->. destruct r as [| |c| |c]; try destruct c; reflexivity. Qed.

Lemma undefined_expansion_strict sh :
  undefined_expansion sh false = if nounset sh then Fail else Ok undefined_exp.
Proof. unfold undefined_expansion. destruct (nounset sh); reflexivity. Qed.

Definition all_empty (l : list str) : bool := forallb (fun f => is_nil f) l.

Lemma existsb_nonempty_all_empty l : existsb (fun f => negb (is_nil f)) l = negb (all_empty l).
Proof. induction l as [|f l IH]; cbn; [reflexivity|]. rewrite IH. destruct (is_nil f); reflexivity. Qed.

Lemma join_nil_iff l : is_nil (join_with SP l) = true <-> l = [] \/ l = [[]].
Proof.
  destruct l as [|a [|b l]]; cbn.
  - tauto.
  - destruct a; cbn; split; intros H; auto; try discriminate; destruct H as [H|H]; congruence.
  - split; [|intros [H|H]; congruence]. destruct a; cbn; discriminate.
Qed.

Lemma join_not_nil_of_nonempty l : all_empty l = false -> is_nil (join_with SP l) = false.
Proof.
  intros H. destruct (is_nil (join_with SP l)) eqn:E; [|reflexivity].
  apply join_nil_iff in E as [->| ->]; discriminate.
Qed.

(** The class of the open finding KF-C06-multi-empty-null: two or more words, all empty — bash
    joins them to a non-empty string. *)
Definition multi_empty (ws : option (list str)) : bool :=
  match ws with Some (a :: b :: l) => all_empty (a :: b :: l) | _ => false end.

Definition tr (st : pstate) : bstate :=
  match st with Undefined => BUnset | DefinedEmptyString => BNull | NonZeroLength => BSet end.

Theorem arms_are_posix_table : forall op colon st, arm_action op colon st = posix_table op colon (tr st).
Proof. intros [] [] []; reflexivity. Qed.

Lemma classify_list_exp r ws :
  classify (list_exp r ws) =
  if all_empty ws then if is_nil ws then Undefined else DefinedEmptyString else NonZeroLength.
Proof.
  unfold classify; cbn [list_exp undefined fields]. rewrite existsb_nonempty_all_empty.
  destruct (all_empty ws); reflexivity.
Qed.

Lemma classify_words r ws : multi_empty (if is_nil ws then None else Some ws) = false ->
  tr (classify (list_exp r ws)) = bstate_of (if is_nil ws then None else Some ws).
Proof.
  intros Hk. rewrite classify_list_exp. destruct (all_empty ws) eqn:A.
  - destruct ws as [|a [|b l]]; cbn in *; [reflexivity|destruct a; [reflexivity|discriminate]|congruence].
  - destruct ws; [discriminate|]. cbn [is_nil bstate_of]. rewrite join_not_nil_of_nonempty by assumption. reflexivity.
Qed.

(** Classes of the two open findings of the conditional operators. *)
Definition known_cond (sh : shell) (r : pref) (op : cop) (colon : bool) : bool :=
  (colon && multi_empty (words sh r)) ||
  (match op, shape_of r, words sh r with OpAlt, ListAt, None => true | _, _, _ => false end).

(** Outside the two known classes every conditional operator yields what the POSIX table yields
    over bash's unset/null/set. *)
Theorem unset_null_table : forall sh r op colon w, known_cond sh r op colon = false ->
  obs2 (conditional sh r op colon (of_string w)) = conditional_spec sh r op colon w.
Proof.
  intros sh r op colon w Hk. unfold known_cond in Hk. apply orb_false_iff in Hk as [Hk1 Hk2].
  unfold conditional, conditional_spec.
  destruct (param_view sh r) as [Hl | w0 Hl W He | Hl W He].
  - rewrite (expand_list sh r true Hl), (words_list sh r Hl) in *. set (ws := elems_of sh r) in *.
    pose proof (dq_conc r (list_exp r ws) eq_refl) as Hdq. cbn [fields list_exp] in Hdq.
    destruct (multi_empty (if is_nil ws then None else Some ws)) eqn:Hm.
    + (* two or more empty words, no colon: null and set are not told apart *)
      rewrite andb_true_r in Hk1. subst colon. destruct ws as [|a [|b l]]; try discriminate. cbn [is_nil] in *.
      rewrite classify_list_exp. cbn [multi_empty] in Hm. rewrite Hm. cbn [is_nil].
      replace (bstate_of _) with BSet by (destruct a; reflexivity).
      destruct op; cbn; rewrite ?Hdq; reflexivity.
    + rewrite arms_are_posix_table, (classify_words r ws Hm). destruct ws as [|a l]; cbn [is_nil] in *.
      * (* no words: what is left after computing is [+] on [$@] / [x[@]], which [Hk2] excludes *)
        cbn [bstate_of]. destruct op, colon; cbn; try reflexivity;
          destruct r as [| |c| |c]; try discriminate; destruct c; cbn in Hk2 |- *; try reflexivity; discriminate Hk2.
      * destruct (posix_table op colon _); cbn; rewrite ?Hdq; try reflexivity.
        destruct r as [| |c| |c]; try discriminate; reflexivity.
  - rewrite He, W, arms_are_posix_table.
    replace (tr (classify (of_string w0))) with (bstate_of (Some [w0])) by (destruct w0; reflexivity).
    destruct (posix_table op colon _); cbn; rewrite ?(scalar_shape r Hl); try reflexivity;
      destruct r; try discriminate; reflexivity.
  - rewrite He, W. unfold undefined_expansion; cbn [orb]. rewrite arms_are_posix_table.
    cbn [classify undefined_exp undefined tr bstate_of].
    destruct op, colon; cbn; rewrite ?(scalar_shape r Hl); try reflexivity; destruct r; try discriminate; reflexivity.
Qed.

(** class of KF-C06-length-nounset-array: [${#x[@]}] of a name that does not exist, under nounset *)
Definition known_len (sh : shell) (r : pref) : bool :=
  nounset sh && match r, var sh with RAll _, VNone => true | _, _ => false end.

Theorem length_eq_spec : forall sh r, known_len sh r = false ->
  parameter_length sh r = length_spec sh r.
Proof.
  intros sh r Hk. unfold parameter_length, parameter_length_with, length_spec.
  destruct r as [|i|c|n|c].
  1, 2, 4: rewrite expand_scalar by reflexivity; destruct (words sh _); [reflexivity|];
    unfold undefined_expansion; cbn [orb]; destruct (var_exists sh), (nounset sh); reflexivity.
  - rewrite expand_list by reflexivity. unfold known_len in Hk. cbn.
    destruct (var sh); cbn in *; try reflexivity. rewrite andb_true_r in Hk. rewrite Hk. reflexivity.
  - rewrite expand_list by reflexivity. reflexivity.
Qed.

Theorem length_chars : forall sh r,
  (forall w, is_list r = false -> words sh r = Some [w] -> parameter_length sh r = Ok (length w)) /\
  (forall l, is_list r = true -> words sh r = Some l -> parameter_length sh r = Ok (length l)).
Proof.
  intros sh r. split.
  - intros w Hl W. unfold parameter_length, parameter_length_with. rewrite expand_scalar, W by assumption. reflexivity.
  - intros l Hl W. unfold parameter_length, parameter_length_with. rewrite expand_list by exact Hl.
    rewrite words_list in W by exact Hl. destruct (elems_of sh r); [discriminate|]. injection W as <-. reflexivity.
Qed.

Definition ascii (s : str) : bool := forallb (fun c => (c <? 128)%N) s.

Lemma byte_len_ascii s : ascii s = true -> byte_len s = length s.
Proof.
  unfold byte_len. assert (G : forall a, ascii s = true -> fold_left (fun a c => (a + utf8_len c)%nat) s a = (a + length s)%nat).
  { induction s as [|c s IH]; intros a H; cbn in *; [lia|].
    apply andb_prop in H as [Hc Hs]. rewrite IH by assumption. unfold utf8_len. rewrite Hc. lia. }
  intros H. rewrite G by assumption. reflexivity.
Qed.

(** Before 68104b7 the code counted bytes: right for ASCII words (KF-C06-length-bytes). *)
Theorem length_old_eq : forall sh r,
  (forall w, is_list r = false -> words sh r = Some [w] -> ascii w = true) ->
  parameter_length_old sh r = parameter_length sh r.
Proof.
  intros sh r H. unfold parameter_length_old, parameter_length, parameter_length_with.
  destruct (param_view sh r) as [Hl | w Hl W He | Hl W He]; rewrite ?He.
  - rewrite expand_list by exact Hl. reflexivity.
  - change (polymorphic_len_old (of_string w)) with (byte_len w). rewrite byte_len_ascii by (apply H; assumption).
    reflexivity.
  - unfold undefined_expansion. destruct (_ || _); reflexivity.
Qed.

Definition sh_scalar (s : str) : shell := {| var := VStr s; args := []; nounset := false; shell_name := [] |}.

Theorem length_old_refuted : exists sh r, parameter_length_old sh r <> length_spec sh r.
Proof. exists (sh_scalar [233%N]), RNamed. vm_compute. discriminate. Qed.

Definition skind_of (k : pkind) : skind :=
  match k with PScalar => KScalar | PArray => KArray | PArgs => KArgs end.
Definition of_bounds (n : Z) (b : bounds) : option (Z * Z) :=
  match b with Empty => Some (n, n) | Range a b => Some (a, b) | BadLength => None end.

(** with the empty slice placed at the end of the value *)
Lemma substring_bounds_bash k n off olen :
  substring_bounds k n off olen = of_bounds n (bash_bounds (skind_of k) n off olen).
Proof.
  unfold substring_bounds, bash_bounds. cbv zeta.
  set (e1 := if off <? 0 then off + n else off).
  replace (match skind_of k with KArray => n <=? e1 | _ => false end)
    with (match k with PArray => n <=? e1 | _ => false end) by (destruct k; reflexivity).
  destruct (_ || _ || _); [reflexivity|].
  destruct olen as [l|]; [|reflexivity]. destruct (l <? 0).
  - destruct k; try reflexivity. cbn [skind_of]. destruct (n + l <? e1); reflexivity.
  - cbn [of_bounds]. rewrite <- Z.add_min_distr_l. replace (e1 + (n - e1)) with n by lia. reflexivity.
Qed.

Lemma bash_bounds_range k n off olen a b :
  bash_bounds k n off olen = Range a b -> 0 <= a /\ a <= b /\ b <= n.
Proof.
  unfold bash_bounds. cbv zeta. set (e1 := if off <? 0 then off + n else off).
  destruct (Z.ltb_spec e1 0); [discriminate|]. destruct (Z.ltb_spec n e1); [discriminate|]. cbn [orb].
  destruct (match k with KArray => n <=? e1 | _ => false end); [discriminate|].
  destruct olen as [l|]; [destruct (Z.ltb_spec l 0)|].
  - destruct k; try discriminate. destruct (Z.ltb_spec (n + l) e1); [discriminate|]. intros [= <- <-]. lia.
  - intros [= <- <-]. lia.
  - intros [= <- <-]. lia.
Qed.

Lemma substring_bounds_range k n off olen a b : 0 <= n ->
  substring_bounds k n off olen = Some (a, b) -> 0 <= a /\ a <= b /\ b <= n.
Proof.
  intros Hn. rewrite substring_bounds_bash. destruct (bash_bounds _ _ _ _) eqn:E; cbn [of_bounds]; intros [= <- <-].
  - lia.
  - eapply bash_bounds_range; eassumption.
Qed.

(** the arm before 1f6bbbf *)
Lemma bounds_old_eq_new k n off olen : (forall l, olen = Some l -> 0 <= l) ->
  substring_bounds k n off olen = Some (substring_bounds_old n off olen).
Proof.
  intros Hl.
  assert (Hpos : forall l (X : option (Z * Z)) Y, olen = Some l -> (if l <? 0 then X else Y) = Y).
  { intros l X Y E. destruct (Z.ltb_spec l 0); [specialize (Hl l E); lia|reflexivity]. }
  (* both compute a start [o] and then the same end from it *)
  set (fin o := match olen with Some l => o + Z.min l (n - o) | None => n end).
  unfold substring_bounds, substring_bounds_old. cbv zeta.
  set (e1 := if off <? 0 then off + n else off). set (o := Z.min _ n). set (g := _ || _ || _).
  assert (Ho : o = if g then n else e1).
  { unfold o, g, e1. destruct (Z.ltb_spec off 0).
    - destruct (Z.ltb_spec (off + n) 0); cbn [orb]; [lia|]. destruct (Z.ltb_spec n (off + n)); [lia|]. cbn [orb].
      destruct k; try lia. destruct (Z.leb_spec n (off + n)); lia.
    - destruct (Z.ltb_spec off 0); [lia|]. destruct (Z.ltb_spec n off); cbn [orb]; [lia|].
      destruct k; try lia. destruct (Z.leb_spec n off); lia. }
  transitivity (Some (o, fin o)).
  - rewrite Ho. unfold fin. destruct g, olen as [l|]; try reflexivity.
    + do 2 f_equal. specialize (Hl l eq_refl). lia.
    + apply Hpos. reflexivity.
  - unfold fin. destruct olen as [l|]; [|reflexivity]. specialize (Hl l eq_refl).
    destruct (Z.ltb_spec l 0); [lia|reflexivity].
Qed.

Lemma bounds_old_zero off olen : (forall l, olen = Some l -> 0 <= l) -> substring_bounds_old 0 off olen = (0, 0).
Proof.
  intros Hpos. pose proof (bounds_old_eq_new PScalar 0 off olen Hpos) as Hb.
  destruct (substring_bounds_old 0 off olen) as [a b].
  apply substring_bounds_range in Hb as (H0 & Hab & Hbn); [|lia]. f_equal; lia.
Qed.

Lemma as_usize_small z : 0 <= z < two64 -> as_usize z = z.
Proof. intros H. unfold as_usize. apply Z.mod_small; exact H. Qed.

Lemma sub_fields_single a idx len : idx + len <= Z.of_nat (length a) ->
  join_with SP (sub_fields [a] idx len) = firstn (Z.to_nat len) (skipn (Z.to_nat idx) a).
Proof.
  intros Hb. cbn [sub_fields].
  destruct (Z.eqb_spec len 0) as [->|Hne]; [reflexivity|].
  destruct (Z.leb_spec (Z.of_nat (length a)) idx) as [Hge|Hlt].
  - cbn. rewrite skipn_all2 by lia. destruct (Z.to_nat len); reflexivity.
  - rewrite Z.min_l by lia. reflexivity.
Qed.

Lemma slice_empty {A} (l : list A) a : slice l a a = [].
Proof. unfold slice. rewrite Z.sub_diag. reflexivity. Qed.

Lemma subslice_list r ws a b : 0 <= a -> a <= b -> b <= Z.of_nat (length ws) < two64 ->
  obs (polymorphic_subslice (list_exp r ws) (as_usize a) (as_usize b)) =
  Ok (render (shape_of r) (slice ws a b), None).
Proof.
  intros H0 Hab Hb. unfold polymorphic_subslice, slice. rewrite !as_usize_small by lia.
  cbn [from_array fields list_exp].
  destruct (Z.ltb_spec b a); [lia|]. destruct (Z.ltb_spec (Z.of_nat (length ws)) a); [lia|].
  rewrite Z.min_l by lia. cbn [obs]. rewrite (dq_conc r (with_fields (list_exp r ws) _) eq_refl). reflexivity.
Qed.

Lemma subslice_string e w a b : fields e = [w] -> from_array e = false -> concatenate e = true ->
  0 <= a -> a <= b -> b <= Z.of_nat (length w) < two64 ->
  obs (polymorphic_subslice e (as_usize a) (as_usize b)) = Ok ([slice w a b], None).
Proof.
  intros Hw Hf Hc H0 Hab Hb. unfold polymorphic_subslice. rewrite !as_usize_small, Hf, Hw by lia.
  destruct (Z.ltb_spec b a); [lia|]. unfold obs, dq_args, with_fields; cbn [concatenate fields]. rewrite Hc.
  rewrite sub_fields_single by lia. reflexivity.
Qed.

Lemma bounds_slice {A} (X : list A) (F : list A -> list str) e k off olen :
  (forall a b, 0 <= a -> a <= b -> b <= Z.of_nat (length X) ->
     obs (polymorphic_subslice e (as_usize a) (as_usize b)) = Ok (F (slice X a b), None)) ->
  obs (match substring_bounds k (Z.of_nat (length X)) off olen with
       | Some (o, en) => polymorphic_subslice e (as_usize o) (as_usize en)
       | None => Fail
       end) =
  match bash_bounds (skind_of k) (Z.of_nat (length X)) off olen with
  | Empty => Ok (F [], None)
  | Range a b => Ok (F (slice X a b), None)
  | BadLength => Fail
  end.
Proof.
  intros H. rewrite substring_bounds_bash.
  destruct (bash_bounds _ _ off olen) as [|a b|] eqn:E; cbn [of_bounds]; [| |reflexivity].
  - rewrite H by lia. rewrite slice_empty. reflexivity.
  - apply bash_bounds_range in E as (H0 & Hab & Hb). apply H; assumption.
Qed.

(** the size assumption under which [usize]/[i64] arithmetic of the arm is exact *)
Definition fits (sh : shell) (r : pref) : Prop :=
  forall e0, expand_parameter sh r false = Ok e0 ->
  Z.of_nat (polymorphic_len (with_shell_name sh r e0)) < two64.

Lemma fits_of_expansion sh r e : expand_parameter sh r false = Ok e ->
  Z.of_nat (polymorphic_len (with_shell_name sh r e)) < two64 -> fits sh r.
Proof. intros He Hlt e0 H. rewrite He in H. injection H as <-. exact Hlt. Qed.

Lemma list_kind r : skind_of (if is_args r then PArgs else PArray) = match r with RArgs _ => KArgs | _ => KArray end.
Proof. destruct r; reflexivity. Qed.

(** bash's [verify_substring_values] *)
Theorem substring_eq_spec : forall sh r off olen, fits sh r ->
  obs (substring sh r off olen) = substring_spec sh r off olen.
Proof.
  intros sh r off olen Hfit. unfold substring.
  destruct (param_view sh r) as [Hl | w Hl W He | Hl W He].
  - specialize (Hfit _ (expand_list sh r false Hl)). rewrite expand_list by exact Hl.
    unfold substring_spec. cbv zeta. rewrite (match_shape_list r Hl). fold (list_words sh r).
    rewrite with_name_elems in *. set (ws' := list_words sh r) in *.
    change (polymorphic_len (list_exp r ws')) with (length ws') in *.
    cbn [undefined list_exp fields orb from_array].
    destruct (is_nil ws') eqn:Hnil.
    + cbn [obs]. rewrite (dq_conc r (list_exp r ws') eq_refl). destruct ws'; [reflexivity|discriminate].
    + rewrite <- list_kind. apply bounds_slice. intros a b H0 Hab Hb. apply subslice_list; lia.
  - specialize (Hfit _ (He false)). rewrite He.
    unfold substring_spec. rewrite (scalar_shape r Hl), W. cbn [join_with].
    unfold with_shell_name in *. rewrite (scalar_not_args r Hl) in *.
    change (polymorphic_len (of_string w)) with (length w) in *.
    cbn [undefined of_string fields is_nil orb from_array].
    apply (bounds_slice w (fun s => [s])). intros a b H0 Hab Hb. apply subslice_string; try reflexivity; lia.
  - unfold substring_spec. rewrite He, (scalar_shape r Hl), W, undefined_expansion_strict.
    destruct (nounset sh); [reflexivity|]. rewrite with_name_scalar by exact Hl. reflexivity.
Qed.

Lemma substring_spec_not_panic sh r off olen : substring_spec sh r off olen <> Panic.
Proof.
  unfold substring_spec. cbv zeta. destruct (shape_of r).
  - destruct (words sh r); [destruct (bash_bounds _ _ off olen)|destruct (nounset sh)]; discriminate.
  - destruct (is_nil _); [|destruct (bash_bounds _ _ off olen)]; discriminate.
  - destruct (is_nil _); [|destruct (bash_bounds _ _ off olen)]; discriminate.
Qed.

Theorem substring_no_panic : forall sh r off olen, fits sh r -> substring sh r off olen <> Panic.
Proof.
  intros sh r off olen Hf H. pose proof (substring_eq_spec sh r off olen Hf) as E.
  rewrite H in E. cbn [obs] in E. symmetry in E. apply substring_spec_not_panic in E. exact E.
Qed.

(** The arm before 1f6bbbf outside its known classes (KF-C06-substring-negative-length,
    KF-C06-substring-bytes). *)
Lemma substring_old_obs sh r off olen :
  (forall l, olen = Some l -> 0 <= l) ->
  (forall w, is_list r = false -> words sh r = Some [w] -> ascii w = true) ->
  obs (substring_old sh r off olen) = obs (substring sh r off olen).
Proof.
  intros Hpos Hasc. unfold substring_old, substring.
  destruct (param_view sh r) as [Hl | w Hl W He | Hl W He].
  - rewrite expand_list, with_name_elems by exact Hl. unfold polymorphic_len_old, polymorphic_len.
    cbn [list_exp undefined fields from_array orb].
    destruct (list_words sh r) as [|x tl].
    + cbn [is_nil length Z.of_nat]. rewrite bounds_old_zero by exact Hpos. reflexivity.
    + cbn [is_nil]. rewrite (bounds_old_eq_new (if is_args r then PArgs else PArray)) by exact Hpos.
      destruct (substring_bounds_old _ off olen). reflexivity.
  - rewrite He. unfold with_shell_name. rewrite (scalar_not_args r Hl).
    replace (polymorphic_len_old (of_string w)) with (length w)
      by (symmetry; apply byte_len_ascii, Hasc; [exact Hl|exact W]).
    change (polymorphic_len (of_string w)) with (length w) in *.
    cbn [undefined of_string fields is_nil orb from_array].
    rewrite (bounds_old_eq_new PScalar) by exact Hpos.
    destruct (substring_bounds_old _ off olen). reflexivity.
  - rewrite He, undefined_expansion_strict. destruct (nounset sh); [reflexivity|].
    rewrite with_name_scalar by exact Hl. change (polymorphic_len_old undefined_exp) with 0%nat.
    cbn [Z.of_nat]. rewrite bounds_old_zero by exact Hpos. reflexivity.
Qed.

Theorem substring_old_eq_spec : forall sh r off olen, fits sh r ->
  (forall l, olen = Some l -> 0 <= l) ->
  (forall w, is_list r = false -> words sh r = Some [w] -> ascii w = true) ->
  obs (substring_old sh r off olen) = substring_spec sh r off olen.
Proof.
  intros sh r off olen Hfit Hpos Hasc. rewrite substring_old_obs by assumption.
  apply substring_eq_spec, Hfit.
Qed.

(** Before 1f6bbbf [${x:2:-5}] with x=abcd panicked ([end - index] on [usize]). *)
Definition abcd : str := [97; 98; 99; 100]%N.
Theorem substring_old_panics : exists sh r off olen, substring_old sh r off olen = Panic.
Proof. exists (sh_scalar abcd), RNamed, 2, (Some (-5)). vm_compute. reflexivity. Qed.

(** … and a negative length that does not panic selects the wrong end: [${x:2:-3}] of
    abcdefgh is cde; the old arm yields cdefg. *)
Definition abcdefgh : str := [97; 98; 99; 100; 101; 102; 103; 104]%N.
Theorem substring_old_negative_length_refuted :
  obs (substring_old (sh_scalar abcdefgh) RNamed 2 (Some (-3))) <> substring_spec (sh_scalar abcdefgh) RNamed 2 (Some (-3)).
Proof. vm_compute. discriminate. Qed.

Lemma remove_with_nil b m o : remove_with b m o [] = [].
Proof. destruct o, b; cbn; try reflexivity; destruct (m []); reflexivity. Qed.

(** what [removal_oracle] maps over the words, named so that it can be folded *)
Definition oracle_word (o : rop) (m : str -> bool) : str -> str :=
  match o with
  | RmSmallestPrefix => spec_remove_prefix true m
  | RmLargestPrefix => spec_remove_prefix false m
  | RmSmallestSuffix => spec_remove_suffix true m
  | RmLargestSuffix => spec_remove_suffix false m
  end.

(** [transform_expansion] maps the loop over the words *)
Lemma removal_generic b sh r o m :
  (forall s, remove_with b m o s = oracle_word o m s) ->
  obs (removal b sh r o (Some m)) = removal_oracle sh r o (Some m).
Proof.
  intros Hf. unfold removal, removal_oracle. fold (oracle_word o m).
  destruct (param_view sh r) as [Hl | w Hl W He | Hl W He].
  - rewrite expand_list, words_list by exact Hl. cbn [obs].
    rewrite (dq_conc r (with_fields (list_exp r _) _) eq_refl). cbn [with_fields fields list_exp].
    rewrite (map_ext _ _ Hf). pose proof (list_not_scalar r Hl) as Hs.
    destruct (elems_of sh r); cbn [is_nil map]; destruct (shape_of r); try reflexivity; congruence.
  - rewrite He, W, (scalar_shape r Hl). cbn. rewrite Hf. reflexivity.
  - rewrite He, W, (scalar_shape r Hl), undefined_expansion_strict. destruct (nounset sh); cbn; [reflexivity|].
    rewrite remove_with_nil. reflexivity.
Qed.

(** after the repair *)
Theorem removal_eq_oracle : forall sh r o m,
  obs (removal true sh r o (Some m)) = removal_oracle sh r o (Some m).
Proof.
  intros. apply removal_generic. intros s. destruct o; cbn.
  - apply remove_smallest_prefix_eq.
  - apply remove_largest_prefix_eq.
  - apply remove_smallest_suffix_eq.
  - apply remove_largest_suffix_eq.
Qed.

(** the loops before 0a1f494, ce50a75, outside their known class *)
Theorem removal_old_eq_oracle : forall sh r o m,
  (match o with RmSmallestPrefix | RmSmallestSuffix => m [] = false | _ => True end) ->
  obs (removal false sh r o (Some m)) = removal_oracle sh r o (Some m).
Proof.
  intros sh r o m H. apply removal_generic. intros s. destruct o; cbn.
  - apply remove_smallest_prefix_old_eq; exact H.
  - apply remove_largest_prefix_eq.
  - apply remove_smallest_suffix_old_eq; exact H.
  - apply remove_largest_suffix_eq.
Qed.

Theorem member_keys_eq_spec : forall sh c, dq_args (member_keys sh c) = keys_spec sh c.
Proof. intros sh c. unfold member_keys, keys_spec, dq_args. destruct (var sh), c; reflexivity. Qed.

(** Regression examples on the code as it is now (after 0a1f494, ce50a75, 68104b7, 1f6bbbf).
    The last: an offset beyond the value leaves the length operand unevaluated (EvProofs.v). *)
Definition e_acute : str := [233%N].
Theorem regression_examples :
  remove_smallest_prefix m_star abc = abc /\ remove_smallest_suffix m_star abc = abc /\
  parameter_length (sh_scalar e_acute) RNamed = Ok 1%nat /\
  substring (sh_scalar abcd) RNamed 2 (Some (-5)) = Fail /\
  obs (substring (sh_scalar abcdefgh) RNamed 2 (Some (-3))) = Ok ([[99; 100; 101]%N], None) /\
  substring_ev (sh_scalar abc) RNamed {| oval := 5; oerr := false; oinc := 0 |} (Some {| oval := 0; oerr := true; oinc := 1 |})
    = (Ok {| fields := []; concatenate := true; from_array := false; undefined := false |}, 0).
Proof. vm_compute. repeat split; reflexivity. Qed.

Definition sh_array : shell :=
  {| var := VIdx [(0, abcd); (1, []); (2, [233%N])]; args := [abcd; []]; nounset := true; shell_name := abcd |}.

Theorem hypotheses_satisfiable :
  fits (sh_scalar abcd) RNamed /\ fits sh_array (RAll false) /\ fits sh_array (RArgs true) /\
  known_cond sh_array (RAll false) OpAlt true = false /\ known_cond (sh_scalar []) RNamed OpAssign true = false /\
  known_len sh_array (RAll true) = false /\
  (exists m : str -> bool, m [] = false /\ m abcd = true).
Proof.
  repeat split; try reflexivity.
  1-3: eapply fits_of_expansion; reflexivity.
  exists (fun s => negb (is_nil s)). split; reflexivity.
Qed.
