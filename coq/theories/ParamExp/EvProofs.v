(** C06 — order of evaluation of the substring operands: the model of the arm against bash's rule
    (offset only for a parameter that has words, length only for an offset inside the value). *)
From BV Require Import Base.Prelude ParamExp.Param ParamExp.ParamSpec ParamExp.ParamProofs.

Definition obs_ev (r : res expansion * Z) : res (list str * option str) * Z := (obs (fst r), snd r).

Lemma bash_bounds_no_length k n v :
  bash_bounds (skind_of k) n v None = if offset_out_of_range k n v then Empty else Range (if v <? 0 then v + n else v) n.
Proof. unfold bash_bounds, offset_out_of_range. destruct k; reflexivity. Qed.

(** once the parameter has words and the offset evaluates *)
Lemma ev_operands sh r off olen k n :
  (forall o l, obs (substring sh r o l) = substring_spec sh r o l) ->
  obs_ev (if offset_out_of_range k n (oval off) then (substring sh r (oval off) None, oinc off)
          else match olen with
               | None => (substring sh r (oval off) None, oinc off)
               | Some l => if oerr l then (Fail, oinc off)
                           else (substring sh r (oval off) (Some (oval l)), oinc off + oinc l)
               end) =
  match bash_bounds (skind_of k) n (oval off) None with
  | Empty => (substring_spec sh r (oval off) None, oinc off)
  | _ => match olen with
         | None => (substring_spec sh r (oval off) None, oinc off)
         | Some l => if oerr l then (Fail, oinc off)
                     else (substring_spec sh r (oval off) (Some (oval l)), oinc off + oinc l)
         end
  end.
Proof.
  intros Hval. rewrite bash_bounds_no_length. unfold obs_ev.
  destruct (offset_out_of_range k n (oval off)); cbn [fst snd]; [rewrite Hval; reflexivity|].
  destruct olen as [l|]; [destruct (oerr l)|]; cbn [fst snd obs]; rewrite ?Hval; reflexivity.
Qed.

Theorem substring_ev_eq_spec : forall sh r off olen, fits sh r ->
  obs_ev (substring_ev sh r off olen) = substring_spec_ev sh r off olen.
Proof.
  intros sh r off olen Hfit.
  assert (Hval : forall o l, obs (substring sh r o l) = substring_spec sh r o l)
    by (intros; apply substring_eq_spec; exact Hfit).
  unfold substring_ev, substring_spec_ev.
  destruct (param_view sh r) as [Hl | w Hl W He | Hl W He].
  - rewrite expand_list, with_name_elems by exact Hl. cbn [list_exp undefined fields orb from_array].
    rewrite !(match_shape_list r Hl). fold (list_words sh r). set (ws' := list_words sh r).
    destruct (is_nil ws') eqn:Hnil.
    + (* without words the arm returns the parameter's expansion, whatever the operands *)
      rewrite <- Hval. unfold substring. rewrite expand_list, with_name_elems by exact Hl.
      cbn [list_exp undefined fields orb]. fold ws'. rewrite Hnil. reflexivity.
    + destruct (oerr off); [reflexivity|]. unfold polymorphic_len; cbn [from_array fields].
      rewrite <- list_kind. apply ev_operands, Hval.
  - rewrite He, (scalar_shape r Hl), W. unfold with_shell_name. rewrite (scalar_not_args r Hl).
    cbn [join_with is_nil undefined of_string fields orb from_array].
    destruct (oerr off); [reflexivity|]. change (polymorphic_len (of_string w)) with (length w).
    apply (ev_operands sh r off olen PScalar), Hval.
  - rewrite He, (scalar_shape r Hl), W. cbn [is_nil]. rewrite <- Hval. unfold substring.
    rewrite He, undefined_expansion_strict. destruct (nounset sh); [reflexivity|].
    rewrite with_name_scalar by exact Hl. reflexivity.
Qed.
