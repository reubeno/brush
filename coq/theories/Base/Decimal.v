(** Decimal round trip: [parse_i64 (show_Z z) = Some z]; rendered numbers contain no blanks. *)
From BV Require Import Base.Prelude.

Definition dval (c : char) : Z := Z.of_N c - 48.
Fixpoint val (a : Z) (s : str) : Z := match s with [] => a | c :: s' => val (a * 10 + dval c) s' end.
Definition all_digits (s : str) : Prop := Forall (fun c => is_digit c = true) s.

Lemma digits_val_val s : all_digits s -> forall a, digits_val a s = Some (val a s).
Proof.
  induction 1 as [|c s Hc _ IH]; intros a; cbn; [reflexivity|]. rewrite Hc. apply IH.
Qed.

Lemma val_shift s : forall a, val a s = a * 10 ^ Z.of_nat (length s) + val 0 s.
Proof.
  induction s as [|c s IH]; intros a.
  - cbn. lia.
  - cbn [val length]. rewrite IH. rewrite (IH (0 * 10 + dval c)).
    rewrite Nat2Z.inj_succ, Z.pow_succ_r by lia. ring.
Qed.

Lemma digit_char n : (n < 10)%N -> is_digit (48 + n)%N = true /\ dval (48 + n)%N = Z.of_N n.
Proof. unfold is_digit, dval. intros H. split; [apply andb_true_intro; split; apply N.leb_le; lia | lia]. Qed.

Lemma show_fuel_spec f : forall n acc, all_digits acc -> (Z.of_N n < 10 ^ Z.of_nat f) ->
  all_digits (show_N_fuel f n acc) /\
  val 0 (show_N_fuel f n acc) = Z.of_N n * 10 ^ Z.of_nat (length acc) + val 0 acc.
Proof.
  induction f as [|f IH]; intros n acc Hacc Hn.
  { cbn in Hn |- *. replace (Z.of_N n) with 0 by lia. split; [assumption|reflexivity]. }
  cbn [show_N_fuel].
  assert (Hm : (n mod 10 < 10)%N) by (apply N.mod_lt; lia).
  destruct (digit_char _ Hm) as [Hd Hv].
  destruct (N.ltb_spec n 10) as [Hlt|Hge].
  - split; [constructor; assumption|].
    cbn [val]. rewrite val_shift. rewrite Hv. rewrite N.mod_small by assumption. ring.
  - assert (Hn' : Z.of_N (n / 10) < 10 ^ Z.of_nat f).
    { rewrite N2Z.inj_div. apply Z.div_lt_upper_bound; [lia|].
      rewrite Nat2Z.inj_succ, Z.pow_succ_r in Hn by lia. exact Hn. }
    destruct (IH (n / 10)%N ((48 + n mod 10)%N :: acc) (Forall_cons _ Hd Hacc) Hn') as [Ha Hval].
    split; [exact Ha|]. rewrite Hval. cbn [val length].
    rewrite (val_shift acc (0 * 10 + _)). rewrite Hv.
    rewrite Nat2Z.inj_succ, Z.pow_succ_r by lia.
    rewrite N2Z.inj_div, N2Z.inj_mod. change (Z.of_N 10) with 10.
    pose proof (Z.div_mod (Z.of_N n) 10 ltac:(lia)) as Hdm. nia.
Qed.

Lemma size_bound n : Z.of_N n < 10 ^ Z.of_nat (S (N.size_nat n)).
Proof.
  destruct n as [|p]; [cbn; lia|].
  assert (H : Z.pos p < 2 ^ Z.of_nat (N.size_nat (N.pos p))).
  { cbn [N.size_nat]. induction p as [p IH|p IH|]; cbn [Pos.size_nat].
    - rewrite Nat2Z.inj_succ, Z.pow_succ_r by lia. rewrite Pos2Z.inj_xI. lia.
    - rewrite Nat2Z.inj_succ, Z.pow_succ_r by lia. rewrite Pos2Z.inj_xO. lia.
    - cbn. lia. }
  cbn [Z.of_N]. eapply Z.lt_le_trans; [exact H|].
  rewrite Nat2Z.inj_succ, Z.pow_succ_r by lia.
  assert (2 ^ Z.of_nat (N.size_nat (N.pos p)) <= 10 ^ Z.of_nat (N.size_nat (N.pos p))).
  { apply Z.pow_le_mono_l; lia. }
  assert (0 < 10 ^ Z.of_nat (N.size_nat (N.pos p))) by (apply Z.pow_pos_nonneg; lia). lia.
Qed.

Lemma show_N_spec n : all_digits (show_N n) /\ val 0 (show_N n) = Z.of_N n /\ show_N n <> [].
Proof.
  unfold show_N.
  destruct (show_fuel_spec (S (N.size_nat n)) n [] (Forall_nil _) (size_bound n)) as [Ha Hv].
  split; [exact Ha|]. split; [rewrite Hv; cbn; lia|].
  cbn [show_N_fuel]. destruct (n <? 10)%N; [discriminate|].
  intro H. apply (f_equal (@length _)) in H.
  revert H. generalize ((48 + n mod 10)%N). generalize (n / 10)%N. generalize (N.size_nat n).
  intros k. assert (G : forall k m acc, (length acc <= length (show_N_fuel k m acc))%nat).
  { clear. induction k as [|k IH]; intros m acc; cbn [show_N_fuel]; [lia|].
    destruct (m <? 10)%N; cbn [length]; [lia|]. etransitivity; [|apply IH]. cbn; lia. }
  intros m c H. pose proof (G k m [c]) as G'. cbn [length] in G', H. unfold char in *. lia.
Qed.

Lemma parse_go_digits neg s : all_digits s -> s <> [] ->
  parse_go neg s = let v := if neg then - val 0 s else val 0 s in if in_i64 v then Some v else None.
Proof.
  intros Ha Hne. unfold parse_go. destruct s as [|c s]; [congruence|].
  rewrite digits_val_val by assumption. reflexivity.
Qed.

Lemma parse_i64_cons c s :
  parse_i64 (c :: s) = if (c =? 43)%N then parse_go false s
                       else if (c =? 45)%N then parse_go true s else parse_go false (c :: s).
Proof. destruct c as [|p]; [reflexivity|]. repeat (destruct p as [p|p|]; try reflexivity). Qed.

Lemma parse_i64_digit c s : is_digit c = true -> parse_i64 (c :: s) = parse_go false (c :: s).
Proof.
  intros Hc. unfold is_digit in Hc. apply andb_prop in Hc as [Hc _]. apply N.leb_le in Hc.
  rewrite parse_i64_cons, !(proj2 (N.eqb_neq c _)) by lia. reflexivity.
Qed.

Theorem parse_show_Z z : in_i64 z = true -> parse_i64 (show_Z z) = Some z.
Proof.
  intros Hr. unfold show_Z. destruct (Z.ltb_spec z 0) as [Hneg|Hpos].
  - destruct (show_N_spec (Z.to_N (- z))) as (Ha & Hv & Hne).
    change (parse_go true (show_N (Z.to_N (- z))) = Some z).
    rewrite parse_go_digits by assumption. cbv zeta. rewrite Hv.
    rewrite Z2N.id by lia. replace (- - z) with z by lia. rewrite Hr. reflexivity.
  - destruct (show_N_spec (Z.to_N z)) as (Ha & Hv & Hne).
    destruct (show_N (Z.to_N z)) as [|c s] eqn:E; [congruence|].
    assert (Hc : is_digit c = true) by (inversion Ha; assumption).
    rewrite parse_i64_digit by assumption.
    rewrite parse_go_digits by assumption. cbv zeta. rewrite Hv, Z2N.id by lia. rewrite Hr. reflexivity.
Qed.

Lemma digit_not_ws c : is_digit c = true -> is_ws c = false.
Proof.
  unfold is_digit, is_ws. intros H. apply andb_prop in H as [H1 H2]. apply N.leb_le in H1, H2.
  rewrite (proj2 (N.leb_gt c 13)), (proj2 (N.leb_gt 8192 c)), !(proj2 (N.eqb_neq c _)) by lia.
  rewrite andb_false_r. reflexivity.
Qed.

Lemma show_Z_no_ws z : Forall (fun c => is_ws c = false) (show_Z z).
Proof.
  unfold show_Z. destruct (z <? 0).
  - constructor; [reflexivity|]. destruct (show_N_spec (Z.to_N (- z))) as (Ha & _).
    eapply Forall_impl; [|exact Ha]. apply digit_not_ws.
  - destruct (show_N_spec (Z.to_N z)) as (Ha & _). eapply Forall_impl; [|exact Ha]. apply digit_not_ws.
Qed.

Lemma trim_start_id s : match s with c :: _ => is_ws c = false | [] => True end -> trim_start s = s.
Proof. destruct s as [|c s]; cbn; [reflexivity|]. intros ->. reflexivity. Qed.

Lemma trim_no_ws s : Forall (fun c => is_ws c = false) s -> trim s = s.
Proof.
  intros H. unfold trim, trim_end. rewrite (trim_start_id s).
  - rewrite trim_start_id; [apply rev_involutive|].
    destruct (rev s) as [|c r] eqn:E; [exact I|].
    assert (In c s) by (apply in_rev; rewrite E; left; reflexivity).
    rewrite Forall_forall in H. auto.
  - destruct s; [exact I|]. inversion H; assumption.
Qed.
